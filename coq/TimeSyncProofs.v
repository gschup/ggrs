(* Proofs about the time-sync model (TimeSync.v) for property C15. *)
From Coq Require Import ZArith List Bool.
From GGRS Require Import Base Consts TimeSync TimeSyncReal.
From GGRS Require Import LiaSetup.
Open Scope Z_scope.

Definition ts_zsum (l : list Z) : Z := fold_right Z.add 0 l.

Definition ts_wf (ts : time_sync) : Prop :=
  length (ts_local ts) = Z.to_nat FRAME_WINDOW_SIZE /\
  length (ts_remote ts) = Z.to_nat FRAME_WINDOW_SIZE.

Lemma ts_zsum_bounds : forall lo hi l,
  Forall (fun x => lo <= x <= hi) l ->
  Z.of_nat (length l) * lo <= ts_zsum l <= Z.of_nat (length l) * hi.
Proof.
  intros lo hi l H. induction H as [|x t Hx _ IH].
  - cbn. lia.
  - cbn [ts_zsum fold_right length]. fold (ts_zsum t). rewrite Nat2Z.inj_succ. lia.
Qed.

Lemma ts_i32_arith_ok : forall dbg x,
  TS_I32_MIN <= x <= TS_I32_MAX -> ts_i32_arith dbg x = Ok x.
Proof.
  intros dbg x H. unfold ts_i32_arith, ts_in_i32.
  replace ((TS_I32_MIN <=? x) && (x <=? TS_I32_MAX)) with true by lia. reflexivity.
Qed.

Lemma ts_sum_from_ok : forall dbg B l acc,
  0 <= B ->
  Forall (fun x => - B <= x <= B) l ->
  Z.abs acc + Z.of_nat (length l) * B <= TS_I32_MAX ->
  ts_sum_from dbg acc l = Ok (acc + ts_zsum l).
Proof.
  intros dbg B l. induction l as [|x t IH]; intros acc HB HF Hacc.
  - cbn. f_equal. lia.
  - inversion HF as [|? ? Hx Ht]; subst.
    cbn [ts_sum_from ts_zsum fold_right length] in *. fold (ts_zsum t).
    rewrite Nat2Z.inj_succ in Hacc.
    assert (Hn : 0 <= Z.of_nat (length t) * B) by (apply Z.mul_nonneg_nonneg; lia).
    rewrite ts_i32_arith_ok by (unfold TS_I32_MIN, TS_I32_MAX in *; lia).
    rewrite IH by (try assumption; lia). f_equal. lia.
Qed.

Lemma ts_sum_ok : forall dbg B l,
  0 <= B ->
  Forall (fun x => - B <= x <= B) l ->
  Z.of_nat (length l) * B <= TS_I32_MAX ->
  ts_sum dbg l = Ok (ts_zsum l).
Proof.
  intros dbg B l HB HF HL. unfold ts_sum.
  rewrite (ts_sum_from_ok dbg B l 0 HB HF) by (cbn [Z.abs]; lia). reflexivity.
Qed.

Lemma ts_fws_pos : 0 < FRAME_WINDOW_SIZE.
Proof. vm_compute. reflexivity. Qed.

Theorem ts_average_of_sums : forall dbg B ts,
  ts_wf ts ->
  0 <= B -> FRAME_WINDOW_SIZE * B <= TS_I32_MAX ->
  Forall (fun x => - B <= x <= B) (ts_local ts) ->
  Forall (fun x => - B <= x <= B) (ts_remote ts) ->
  ts_average_frame_advantage dbg ts =
    Ok (ts_avg_of_sums (ts_zsum (ts_local ts)) (ts_zsum (ts_remote ts))).
Proof.
  intros dbg B ts [Hl Hr] HB HWB HFl HFr. pose proof ts_fws_pos as HW.
  unfold ts_average_frame_advantage.
  rewrite (ts_sum_ok dbg B _ HB HFl) by (rewrite Hl; lia).
  rewrite (ts_sum_ok dbg B _ HB HFr) by (rewrite Hr; lia).
  rewrite Hl, Hr. rewrite Z2Nat.id by lia. reflexivity.
Qed.

(* For lead k: peer A's local window sum sl ranges over W*(-k-1) .. W*(-k+1) and its remote window
   sum sr over W*(k-1) .. W*(k+1)  (W = FRAME_WINDOW_SIZE entries, each within 1 of -k resp. k).
   a = A's average, b = the average of the peer holding the mirrored windows. *)
Definition ts_steady_ok (k a b : Z) : bool :=
  (Z.abs (a - k) <=? 1) && (Z.abs (b + k) <=? 1) && (Z.abs (a + b) <=? 1).

(* Every intermediate value of the binary32 computation lies between two integers that binary32
   represents exactly (hence the bound on k): rounding keeps it there, and rounding to nearest is odd,
   so that b = -a.  TimeSyncReal.v has the argument. *)
Lemma ts_steady_sums : forall k sl sr,
  FRAME_WINDOW_SIZE * (Z.abs k + 1) < 2 ^ 23 ->
  FRAME_WINDOW_SIZE * (- k - 1) <= sl <= FRAME_WINDOW_SIZE * (- k + 1) ->
  FRAME_WINDOW_SIZE * (k - 1) <= sr <= FRAME_WINDOW_SIZE * (k + 1) ->
  ts_steady_ok k (ts_avg_of_sums sl sr) (ts_avg_of_sums sr sl) = true.
Proof.
  intros k sl sr Hk Hsl Hsr. pose proof ts_fws_pos as HW.
  assert (HW' : 0 < FRAME_WINDOW_SIZE < 2 ^ 24) by nia.
  unfold ts_avg_of_sums.
  pose proof (ts_meet_window_band _ k 1 sl sr HW' ltac:(lia) Hk Hsl Hsr) as Ha.
  pose proof (ts_meet_window_antisym _ sl sr HW' ltac:(nia) ltac:(nia)) as Hb.
  unfold ts_steady_ok. lia.
Qed.

Lemma ts_lead_small : forall k, -7 <= k <= 7 -> FRAME_WINDOW_SIZE * (Z.abs k + 1) < 2 ^ 23.
Proof.
  intros k Hk. assert (H : FRAME_WINDOW_SIZE * 8 < 2 ^ 23) by (vm_compute; reflexivity).
  pose proof ts_fws_pos. nia.
Qed.

Definition ts_mirror (ts : time_sync) : time_sync :=
  {| ts_local := ts_remote ts; ts_remote := ts_local ts |}.

Lemma ts_wf_mirror : forall ts, ts_wf ts -> ts_wf (ts_mirror ts).
Proof. intros ts [H1 H2]. split; assumption. Qed.

Theorem ts_avg_steady : forall dbg k ts,
  FRAME_WINDOW_SIZE * (Z.abs k + 1) < 2 ^ 23 ->
  ts_wf ts ->
  Forall (fun x => - k - 1 <= x <= - k + 1) (ts_local ts) ->
  Forall (fun x => k - 1 <= x <= k + 1) (ts_remote ts) ->
  exists a b,
    ts_average_frame_advantage dbg ts = Ok a /\
    ts_average_frame_advantage dbg (ts_mirror ts) = Ok b /\
    k - 1 <= a <= k + 1 /\ - k - 1 <= b <= - k + 1 /\ -1 <= a + b <= 1.
Proof.
  intros dbg k ts Hk Hwf Hl Hr.
  pose proof ts_fws_pos as HW. set (B := Z.abs k + 1) in *.
  assert (HB : FRAME_WINDOW_SIZE * B <= TS_I32_MAX) by (unfold TS_I32_MAX; lia).
  assert (HlB : Forall (fun x => - B <= x <= B) (ts_local ts))
    by (eapply Forall_impl; [|exact Hl]; cbv beta; intros; lia).
  assert (HrB : Forall (fun x => - B <= x <= B) (ts_remote ts))
    by (eapply Forall_impl; [|exact Hr]; cbv beta; intros; lia).
  exists (ts_avg_of_sums (ts_zsum (ts_local ts)) (ts_zsum (ts_remote ts))),
         (ts_avg_of_sums (ts_zsum (ts_remote ts)) (ts_zsum (ts_local ts))).
  split; [apply (ts_average_of_sums dbg B ts); auto; lia|].
  split; [apply (ts_average_of_sums dbg B (ts_mirror ts)); auto using ts_wf_mirror; lia|].
  pose proof (ts_zsum_bounds _ _ _ Hl) as Bl. pose proof (ts_zsum_bounds _ _ _ Hr) as Br.
  destruct Hwf as [Ll Lr]. rewrite Ll, Z2Nat.id in Bl by lia. rewrite Lr, Z2Nat.id in Br by lia.
  pose proof (ts_steady_sums k _ _ Hk Bl Br) as Hc.
  unfold ts_steady_ok in Hc. lia.
Qed.

Fixpoint ts_run (ts : time_sync) (frame : Z) (ws : list (Z * Z)) : res time_sync :=
  match ws with
  | [] => Ok ts
  | (l, r) :: t =>
    match ts_advance_frame ts frame l r with
    | Ok ts' => ts_run ts' (frame + 1) t
    | Err => Err
    | Panic => Panic
    end
  end.

Fixpoint ts_run_list (l : list Z) (frame : Z) (vs : list Z) : list Z :=
  match vs with
  | [] => l
  | v :: t =>
    ts_run_list (ts_set_nth (Z.to_nat (ts_index frame (Z.of_nat (length l)))) v l) (frame + 1) t
  end.

Lemma ts_set_nth_length : forall l i v, length (ts_set_nth i v l) = length l.
Proof. induction l as [|x t IH]; intros [|i] v; cbn; auto. Qed.

Lemma ts_set_nth_same : forall l i v d, (i < length l)%nat -> nth i (ts_set_nth i v l) d = v.
Proof.
  induction l as [|x t IH]; intros [|i] v d H; cbn in *; try lia; auto.
  apply IH. lia.
Qed.

Lemma ts_set_nth_other : forall l i j v d, i <> j -> nth j (ts_set_nth i v l) d = nth j l d.
Proof.
  induction l as [|x t IH]; intros [|i] [|j] v d H; cbn; auto; try congruence.
Qed.

Lemma ts_run_list_length : forall vs l f, length (ts_run_list l f vs) = length l.
Proof.
  induction vs as [|v t IH]; intros l f; cbn [ts_run_list]; auto.
  rewrite IH. apply ts_set_nth_length.
Qed.

Lemma ts_index_range : forall f len, 0 < len -> 0 <= ts_index f len < len.
Proof. intros. unfold ts_index. apply Z.mod_pos_bound. assumption. Qed.

Lemma ts_run_list_slot : forall (P : Z -> Prop) vs l f j,
  Forall P vs ->
  (j < length l)%nat ->
  (P (nth j l 0) \/
   exists i, 0 <= i < Z.of_nat (length vs) /\ ts_index (f + i) (Z.of_nat (length l)) = Z.of_nat j) ->
  P (nth j (ts_run_list l f vs) 0).
Proof.
  intros P vs. induction vs as [|v t IH]; intros l f j HF Hj H.
  - cbn [ts_run_list]. destruct H as [H|[i [Hi _]]]; [assumption|cbn in Hi; lia].
  - inversion HF as [|? ? Hv Ht]; subst. cbn [ts_run_list].
    pose proof (ts_index_range f (Z.of_nat (length l)) ltac:(lia)) as Hidx.
    set (i0 := Z.to_nat (ts_index f (Z.of_nat (length l)))) in *.
    assert (Hlen : length (ts_set_nth i0 v l) = length l) by apply ts_set_nth_length.
    apply IH; rewrite ?Hlen; try assumption.
    destruct (Nat.eq_dec i0 j) as [E|NE].
    + left. subst j. rewrite ts_set_nth_same by assumption. assumption.
    + destruct H as [H|[i [Hi Hidx2]]].
      * left. rewrite ts_set_nth_other by assumption. assumption.
      * destruct (Z.eq_dec i 0) as [->|Hi0].
        -- exfalso. apply NE. unfold i0. rewrite Z.add_0_r in Hidx2. rewrite Hidx2. lia.
        -- right. exists (i - 1). split.
           ++ cbn [length] in Hi. lia.
           ++ replace (f + 1 + (i - 1)) with (f + i) by lia. assumption.
Qed.

(* frames below 2^64, so that `frame as usize` does not wrap between two of them *)
Lemma ts_run_list_covered : forall (P : Z -> Prop) vs l f,
  (0 < length l)%nat ->
  Forall P vs ->
  0 <= f -> f + Z.of_nat (length vs) <= 2 ^ 64 ->
  (length l <= length vs)%nat ->
  Forall P (ts_run_list l f vs).
Proof.
  intros P vs l f Hl HF Hf Hmax Hlen.
  apply Forall_nth. intros j d Hj. rewrite ts_run_list_length in Hj.
  rewrite nth_indep with (d' := 0) by (rewrite ts_run_list_length; assumption).
  apply ts_run_list_slot; try assumption.
  right. set (W := Z.of_nat (length l)). assert (HW : 0 < W) by lia.
  exists ((Z.of_nat j - f) mod W). split.
  - pose proof (Z.mod_pos_bound (Z.of_nat j - f) W HW). lia.
  - unfold ts_index.
    pose proof (Z.mod_pos_bound (Z.of_nat j - f) W HW) as Hb.
    rewrite (Z.mod_small (f + _)) by lia.
    rewrite Z.add_mod_idemp_r by lia.
    replace (f + (Z.of_nat j - f)) with (Z.of_nat j) by lia.
    apply Z.mod_small. lia.
Qed.

(* `x % 0` is out of reach once both windows are non-empty *)
Lemma ts_advance_frame_eq : forall ts f l r,
  (0 < length (ts_local ts))%nat -> (0 < length (ts_remote ts))%nat ->
  ts_advance_frame ts f l r =
    Ok {| ts_local := ts_set_nth (Z.to_nat (ts_index f (Z.of_nat (length (ts_local ts))))) l (ts_local ts);
          ts_remote := ts_set_nth (Z.to_nat (ts_index f (Z.of_nat (length (ts_remote ts))))) r (ts_remote ts) |}.
Proof.
  intros ts f l r Hl Hr. unfold ts_advance_frame.
  replace ((Z.of_nat (length (ts_local ts)) =? 0) || (Z.of_nat (length (ts_remote ts)) =? 0))
    with false by lia.
  reflexivity.
Qed.

Lemma ts_run_lists : forall ws ts f,
  (0 < length (ts_local ts))%nat -> (0 < length (ts_remote ts))%nat ->
  ts_run ts f ws =
    Ok {| ts_local := ts_run_list (ts_local ts) f (map fst ws);
          ts_remote := ts_run_list (ts_remote ts) f (map snd ws) |}.
Proof.
  induction ws as [|[l r] t IH]; intros ts f Hl Hr.
  - cbn. destruct ts; reflexivity.
  - cbn [ts_run map fst snd ts_run_list]. rewrite ts_advance_frame_eq by assumption.
    rewrite IH; cbn [ts_local ts_remote]; rewrite ?ts_set_nth_length; auto.
Qed.

(* Whatever the windows held before: after at least FRAME_WINDOW_SIZE consecutive frames whose
   recorded advantages stay within one frame of (-k, +k), the average is within one frame of k,
   the mirrored peer's is within one of -k, and the two sum to within one frame of zero. *)
Theorem ts_avg_settles : forall dbg k ts0 f ws,
  FRAME_WINDOW_SIZE * (Z.abs k + 1) < 2 ^ 23 ->
  ts_wf ts0 ->
  0 <= f -> f + Z.of_nat (length ws) <= 2 ^ 64 ->
  FRAME_WINDOW_SIZE <= Z.of_nat (length ws) ->
  Forall (fun w => (- k - 1 <= fst w <= - k + 1) /\ (k - 1 <= snd w <= k + 1)) ws ->
  exists ts a b,
    ts_run ts0 f ws = Ok ts /\ ts_wf ts /\
    ts_average_frame_advantage dbg ts = Ok a /\
    ts_average_frame_advantage dbg (ts_mirror ts) = Ok b /\
    k - 1 <= a <= k + 1 /\ - k - 1 <= b <= - k + 1 /\ -1 <= a + b <= 1.
Proof.
  intros dbg k ts0 f ws Hk [Ll Lr] Hf Hmax Hlen HF.
  pose proof ts_fws_pos as HW.
  assert (Hl0 : (0 < length (ts_local ts0))%nat) by lia.
  assert (Hr0 : (0 < length (ts_remote ts0))%nat) by lia.
  eexists. 
  assert (Hwf : ts_wf {| ts_local := ts_run_list (ts_local ts0) f (map fst ws);
                         ts_remote := ts_run_list (ts_remote ts0) f (map snd ws) |}).
  { split; cbn [ts_local ts_remote]; rewrite ts_run_list_length; assumption. }
  assert (HFl : Forall (fun x => - k - 1 <= x <= - k + 1) (map fst ws)).
  { apply Forall_map. eapply Forall_impl; [|exact HF]. cbv beta. intros w [H _]. exact H. }
  assert (HFr : Forall (fun x => k - 1 <= x <= k + 1) (map snd ws)).
  { apply Forall_map. eapply Forall_impl; [|exact HF]. cbv beta. intros w [_ H]. exact H. }
  destruct (ts_avg_steady dbg k _ Hk Hwf) as [a [b H]].
  - cbn [ts_local]. apply ts_run_list_covered; rewrite ?map_length; auto; lia.
  - cbn [ts_remote]. apply ts_run_list_covered; rewrite ?map_length; auto; lia.
  - exists a, b. split; [apply ts_run_lists; assumption|]. split; [exact Hwf|exact H].
Qed.

Lemma ts_new_wf : ts_wf ts_new.
Proof. split; cbn [ts_new ts_local ts_remote]; apply repeat_length. Qed.

Lemma ts_advance_frame_wf : forall ts f l r,
  ts_wf ts -> exists ts', ts_advance_frame ts f l r = Ok ts' /\ ts_wf ts'.
Proof.
  intros ts f l r [Ll Lr]. pose proof ts_fws_pos as HW. rewrite ts_advance_frame_eq by lia.
  eexists. split; [reflexivity|]. split; cbn [ts_local ts_remote]; rewrite ts_set_nth_length; assumption.
Qed.

Lemma ts_rtt_nonneg : forall now pong, 0 <= ts_round_trip_time now pong.
Proof. intros. unfold ts_round_trip_time. lia. Qed.

Lemma ts_ping_min : forall rtt, ts_ping rtt = Z.min (rtt / 2) TS_I32_MAX.
Proof. intros rtt. unfold ts_ping. cbv zeta. destruct (Z.leb_spec (rtt / 2) TS_I32_MAX); lia. Qed.

Lemma ts_ping_range : forall rtt, 0 <= rtt -> 0 <= ts_ping rtt <= TS_I32_MAX.
Proof. intros rtt H. rewrite ts_ping_min. unfold TS_I32_MAX. lia. Qed.

Lemma ts_ping_half : forall rtt, 0 <= rtt -> rtt / 2 <= TS_I32_MAX -> ts_ping rtt = rtt / 2.
Proof. intros rtt H H2. rewrite ts_ping_min. lia. Qed.

Lemma ts_ping_mono : forall r1 r2, 0 <= r1 <= r2 -> ts_ping r1 <= ts_ping r2.
Proof. intros r1 r2 H. rewrite !ts_ping_min. lia. Qed.

(* one-way latency L ms on a symmetric link: rtt = 2L (or 2L+1 when a clock tick falls in between) *)
Lemma ts_ping_latency : forall L e, 0 <= L <= TS_I32_MAX -> 0 <= e <= 1 -> ts_ping (2 * L + e) = L.
Proof. intros L e HL He. rewrite ts_ping_half; unfold TS_I32_MAX in *; lia. Qed.

Lemma ts_wrap_i32_small : forall x, TS_I32_MIN <= x <= TS_I32_MAX -> ts_wrap_i32 x = x.
Proof. intros x H. unfold ts_wrap_i32, TS_I32_MIN, TS_I32_MAX in *. lia. Qed.

Lemma ts_estimate_value : forall dbg rtt fps lr lf cur,
  0 <= rtt -> 0 <= fps <= TS_I32_MAX ->
  0 <= lr <= TS_I32_MAX -> 0 <= lf <= TS_I32_MAX ->
  ts_ping rtt * fps <= TS_I32_MAX ->
  lr + ts_ping rtt * fps / 1000 <= TS_I32_MAX ->
  ts_update_local_frame_advantage dbg rtt fps lr lf cur =
    Ok (lr + ts_ping rtt * fps / 1000 - lf).
Proof.
  intros dbg rtt fps lr lf cur Hrtt Hfps Hlr Hlf Hmul Hadd.
  unfold ts_update_local_frame_advantage.
  replace ((lf =? NULL) || (lr =? NULL)) with false by (unfold NULL; lia).
  rewrite ts_wrap_i32_small by (unfold TS_I32_MIN, TS_I32_MAX in *; lia).
  pose proof (ts_ping_range rtt Hrtt) as Hp.
  assert (Hm0 : 0 <= ts_ping rtt * fps) by (apply Z.mul_nonneg_nonneg; lia).
  set (m := ts_ping rtt * fps) in *.
  rewrite ts_i32_arith_ok by (unfold TS_I32_MIN, TS_I32_MAX in *; lia).
  rewrite Z.quot_div_nonneg by lia.
  assert (0 <= m / 1000) by (apply Z.div_pos; lia).
  rewrite ts_i32_arith_ok by (unfold TS_I32_MIN, TS_I32_MAX in *; lia).
  rewrite ts_i32_arith_ok by (unfold TS_I32_MIN, TS_I32_MAX in *; lia).
  reflexivity.
Qed.

(* C15 range: one-way latency L in 0..=100 ms, any fps in 1..=1000 (covers 30, 60, 120),
   frames below 2^30: remote_frame = last_recv_frame + floor(L * fps / 1000); never panics *)
Theorem ts_estimate_latency : forall dbg L e fps lr lf cur,
  0 <= L <= 100 -> 0 <= e <= 1 -> 1 <= fps <= 1000 ->
  0 <= lr <= 1073741824 -> 0 <= lf <= 1073741824 ->
  ts_update_local_frame_advantage dbg (2 * L + e) fps lr lf cur =
    Ok (lr + L * fps / 1000 - lf).
Proof.
  intros dbg L e fps lr lf cur HL He Hfps Hlr Hlf.
  assert (Hp : ts_ping (2 * L + e) = L) by (apply ts_ping_latency; unfold TS_I32_MAX; lia).
  assert (Hm : 0 <= L * fps <= 100000) by nia.
  rewrite ts_estimate_value; rewrite ?Hp; unfold TS_I32_MAX; try lia.
  reflexivity.
Qed.

(* link between the estimate and the bands of the steady-window theorem: peer B is at frame b, the
   newest frame received from it was produced one latency ago give or take a frame, and this peer
   runs k frames ahead of B; then the recorded local advantage is within one frame of -k *)
Theorem ts_estimate_steady_band : forall dbg L e fps b k lr cur,
  0 <= L <= 100 -> 0 <= e <= 1 -> 1 <= fps <= 1000 ->
  0 <= b + k <= 1073741824 -> 0 <= lr <= 1073741824 ->
  b - L * fps / 1000 - 1 <= lr <= b - L * fps / 1000 + 1 ->
  exists adv,
    ts_update_local_frame_advantage dbg (2 * L + e) fps lr (b + k) cur = Ok adv /\
    - k - 1 <= adv <= - k + 1.
Proof.
  intros dbg L e fps b k lr cur HL He Hfps Hb Hlr Hband.
  rewrite ts_estimate_latency by lia.
  eexists. split; [reflexivity|]. lia.
Qed.

(* send_quality_report: the frame advantage goes out clamped to i16 *)
Lemma ts_report_total : forall adv, ts_report_frame_advantage adv = Ok (ts_clamp_i16 adv).
Proof.
  intros adv. unfold ts_report_frame_advantage, ts_in_i16, ts_clamp_i16, TS_I16_MIN, TS_I16_MAX.
  cbv zeta.
  replace ((-32768 <=? Z.max (-32768) (Z.min 32767 adv)) && (Z.max (-32768) (Z.min 32767 adv) <=? 32767))
    with true by lia.
  reflexivity.
Qed.

Lemma ts_clamp_i16_id : forall adv, TS_I16_MIN <= adv <= TS_I16_MAX -> ts_clamp_i16 adv = adv.
Proof. intros adv. unfold ts_clamp_i16, TS_I16_MIN, TS_I16_MAX. lia. Qed.

Lemma ts_clamp_i16_range : forall adv, TS_I16_MIN <= ts_clamp_i16 adv <= TS_I16_MAX.
Proof. intros adv. unfold ts_clamp_i16, TS_I16_MIN, TS_I16_MAX. lia. Qed.

Lemma ts_clamp_i16_mono : forall a b, a <= b -> ts_clamp_i16 a <= ts_clamp_i16 b.
Proof. intros a b. unfold ts_clamp_i16, TS_I16_MIN, TS_I16_MAX. lia. Qed.

Lemma Forall_repeat : forall (A : Type) (P : A -> Prop) x n, P x -> Forall P (repeat x n).
Proof. intros A P x n H. induction n; cbn [repeat]; auto. Qed.

Definition ts_ex_steady : time_sync :=
  {| ts_local := repeat (-5) 10 ++ repeat (-6) 10 ++ repeat (-4) 10;
     ts_remote := repeat 5 15 ++ repeat 6 15 |}.

Definition ts_ex_stale : time_sync := {| ts_local := repeat 1000 30; ts_remote := repeat (-1000) 30 |}.
Definition ts_ex_writes : list (Z * Z) := repeat (3, -3) 20 ++ repeat (4, -2) 20.

Lemma gate_min_nonneg : 0 <= MIN_RECOMMENDATION.
Proof. vm_compute. discriminate. Qed.
Lemma gate_interval_nonneg : 0 <= RECOMMENDATION_INTERVAL.
Proof. vm_compute. discriminate. Qed.

(* the conversion to u32 can never fail: the gate lets only fa >= MIN_RECOMMENDATION >= 0 through *)
Lemma gate_step_eq : forall next cf fa,
  gate_step next cf fa =
    Ok (if (next <? cf) && (MIN_RECOMMENDATION <=? fa)
        then (cf + RECOMMENDATION_INTERVAL, Some fa) else (next, None)).
Proof.
  intros next cf fa. unfold gate_step. pose proof gate_min_nonneg.
  destruct ((next <? cf) && (MIN_RECOMMENDATION <=? fa)) eqn:Hc; [|reflexivity].
  replace (fa <? 0) with false by lia. reflexivity.
Qed.

Lemma gate_run_cons : forall next cf fa r,
  gate_run next ((cf, fa) :: r) =
    if (next <? cf) && (MIN_RECOMMENDATION <=? fa)
    then (cf, fa, Some fa) :: gate_run (cf + RECOMMENDATION_INTERVAL) r
    else (cf, fa, None) :: gate_run next r.
Proof.
  intros next cf fa r. cbn [gate_run]. rewrite gate_step_eq.
  destruct ((next <? cf) && (MIN_RECOMMENDATION <=? fa)); reflexivity.
Qed.

Lemma gate_run_length : forall calls next, length (gate_run next calls) = length calls.
Proof.
  induction calls as [|[cf fa] r IH]; intros next; [reflexivity|].
  rewrite gate_run_cons. destruct ((next <? cf) && (MIN_RECOMMENDATION <=? fa)); cbn [length]; now rewrite IH.
Qed.

Lemma gate_run_above : forall calls next cf fa k,
  In (cf, fa, Some k) (gate_run next calls) -> next < cf /\ k = fa /\ MIN_RECOMMENDATION <= fa.
Proof.
  induction calls as [|[cf0 fa0] r IH]; intros next cf fa k HIn; [contradiction|].
  rewrite gate_run_cons in HIn. pose proof gate_interval_nonneg.
  destruct ((next <? cf0) && (MIN_RECOMMENDATION <=? fa0)) eqn:Hc; destruct HIn as [HIn|HIn].
  - inversion HIn; subst. lia.
  - apply IH in HIn. lia.
  - discriminate.
  - apply IH in HIn. exact HIn.
Qed.

Lemma gate_run_split : forall calls next pre cf fa o post,
  gate_run next calls = pre ++ (cf, fa, o) :: post ->
  exists n' rest, post = gate_run n' rest /\ (forall k, o = Some k -> n' = cf + RECOMMENDATION_INTERVAL).
Proof.
  induction calls as [|[cf0 fa0] r IH]; intros next pre cf fa o post H.
  - destruct pre; discriminate.
  - rewrite gate_run_cons in H. destruct pre as [|x pre]; cbn [app] in H.
    + destruct ((next <? cf0) && (MIN_RECOMMENDATION <=? fa0)); inversion H; subst;
        eexists _, r; (split; [reflexivity|]); intros k Hk; [reflexivity|discriminate].
    + destruct ((next <? cf0) && (MIN_RECOMMENDATION <=? fa0)); inversion H; subst; eapply IH; eassumption.
Qed.

Fixpoint gate_steady (c : Z) (n : nat) (fa : Z) : list (Z * Z) :=
  match n with O => [] | S k => (c, fa) :: gate_steady (c + 1) k fa end.

Lemma mod_sub_period : forall x m, m <> 0 -> (x - m) mod m = x mod m.
Proof. intros x m Hm. replace (x - m) with (x + (-1) * m) by lia. apply Z.mod_add. exact Hm. Qed.

Lemma mod_neg_nonzero : forall x m, - m < x < 0 -> x mod m <> 0.
Proof. intros x m H. rewrite <- (Z.mod_add x 1 m), Z.mod_small; lia. Qed.

(* cadence: recommendations come exactly every RECOMMENDATION_INTERVAL + 1 frames, starting at the first frame
   above the gate state *)
Lemma gate_steady_cadence : forall n next c fa cf o,
  MIN_RECOMMENDATION <= fa -> next < c + RECOMMENDATION_INTERVAL ->
  In (cf, fa, o) (gate_run next (gate_steady c n fa)) ->
  (o = Some fa /\ (cf - Z.max (next + 1) c) mod (RECOMMENDATION_INTERVAL + 1) = 0) \/
  (o = None /\ (cf - Z.max (next + 1) c) mod (RECOMMENDATION_INTERVAL + 1) <> 0).
Proof.
  induction n as [|k IH]; intros next c fa cf o Hfa Hn HIn; [contradiction|].
  cbn [gate_steady] in HIn. rewrite gate_run_cons in HIn. pose proof gate_interval_nonneg as Hr.
  destruct ((next <? c) && (MIN_RECOMMENDATION <=? fa)) eqn:Hc; destruct HIn as [HIn|HIn].
  - inversion HIn; subst. left. split; [reflexivity|].
    replace (Z.max (next + 1) cf) with cf by lia. rewrite Z.sub_diag. apply Z.mod_0_l. lia.
  - (* the gate opens again RECOMMENDATION_INTERVAL + 1 frames after c *)
    apply IH in HIn; [|assumption|lia].
    replace (Z.max (c + RECOMMENDATION_INTERVAL + 1) (c + 1))
      with (Z.max (next + 1) c + (RECOMMENDATION_INTERVAL + 1)) in HIn by lia.
    rewrite Z.sub_add_distr, mod_sub_period in HIn by lia. exact HIn.
  - (* c is below the first frame above the gate state, by less than a period *)
    inversion HIn; subst. right. split; [reflexivity|]. apply mod_neg_nonzero. lia.
  - apply IH in HIn; [|assumption|lia].
    replace (Z.max (next + 1) (c + 1)) with (Z.max (next + 1) c) in HIn by lia. exact HIn.
Qed.

Definition gate_ex_calls : list (Z * Z) :=
  [(1, 0); (2, 3); (3, 5); (40, 7); (62, 2); (63, 4); (64, 4); (123, 2); (124, 9)].
