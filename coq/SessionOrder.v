(* C17 on the session core model: what is done "for every endpoint" / "for every local player" - in
   the code an iteration over a HashMap - does not depend on the order of the iteration.
   Here: the Disconnected events of two different endpoints handled in either order give the same
   session state.  In ggrs before commit e6b12d3 the pending disconnect frame was the one of the event
   handled last (drop_ep_old, props/C17.v). *)
From GGRS Require Import Base Consts Queue Sync P2P ModelLists Session.
From GGRS Require Import LiaSetup.
Open Scope Z_scope.

Definition mark (hs : list Z) (st : list cstat) : list cstat :=
  fold_left (fun st h' => set_stat st h' (mkcs true (cs_last (nth (Z.to_nat h') st cs_default)))) hs st.

Lemma nth_updz {A} : forall (l : list A) i j x d, nth j (updz l i x) d = if (Nat.eqb i j && Nat.ltb i (length l))%bool then x else nth j l d.
Proof.
  induction l as [|y r IH]; intros [|i] [|j] x d; cbn [updz nth length Nat.eqb Nat.ltb Nat.leb andb]; try reflexivity.
  - destruct (Nat.eqb i j); reflexivity.
  - rewrite IH. reflexivity.
Qed.

Lemma mark_len : forall hs st, length (mark hs st) = length st.
Proof. induction hs as [|h hs IH]; intros st; cbn [mark fold_left]; [reflexivity|]. unfold mark in IH. rewrite IH. unfold set_stat. apply updz_length. Qed.

Definition hit (hs : list Z) (j : nat) : bool := existsb (fun h => Nat.eqb (Z.to_nat h) j) hs.

Lemma mark_nth : forall hs st j, (j < length st)%nat ->
  nth j (mark hs st) cs_default = if hit hs j then mkcs true (cs_last (nth j st cs_default)) else nth j st cs_default.
Proof.
  induction hs as [|h hs IH]; intros st j Hj; cbn [mark fold_left hit existsb]; [reflexivity|].
  fold (mark hs (set_stat st h (mkcs true (cs_last (nth (Z.to_nat h) st cs_default))))).
  rewrite IH by (unfold set_stat; rewrite updz_length; exact Hj).
  unfold set_stat. rewrite nth_updz. fold (hit hs j).
  destruct (Nat.eqb_spec (Z.to_nat h) j) as [E|E]; cbn [orb andb].
  - subst j. assert (Nat.ltb (Z.to_nat h) (length st) = true) as -> by (apply Nat.ltb_lt; exact Hj).
    cbn [cs_last]. destruct (hit hs (Z.to_nat h)); reflexivity.
  - reflexivity.
Qed.

Lemma mark_comm : forall hs1 hs2 st, mark hs2 (mark hs1 st) = mark hs1 (mark hs2 st).
Proof.
  intros hs1 hs2 st. apply (nth_ext _ _ cs_default cs_default); [rewrite !mark_len; reflexivity|].
  intros j Hj. rewrite !mark_len in Hj.
  rewrite !mark_nth by (rewrite ?mark_len; exact Hj).
  destruct (hit hs1 j), (hit hs2 j); cbn [cs_last]; reflexivity.
Qed.

Lemma mark_last : forall hs st h, cs_last (nth h (mark hs st) cs_default) = cs_last (nth h st cs_default).
Proof.
  intros hs st h. destruct (Nat.lt_ge_cases h (length st)) as [Hl|Hl].
  - rewrite mark_nth by exact Hl. destruct (hit hs h); reflexivity.
  - rewrite !nth_overflow by (rewrite ?mark_len; lia). reflexivity.
Qed.


(* the pending disconnect frame keeps the earliest *)
Definition keep_min (a x : Z) : Z := if a =? NULL then x else Z.min a x.
Lemma keep_min_comm : forall a x y, 0 <= x -> 0 <= y -> keep_min (keep_min a x) y = keep_min (keep_min a y) x.
Proof.
  intros a x y Hx Hy. unfold keep_min, NULL. destruct (Z.eqb_spec a (-1)) as [->|Ha].
  - replace (x =? -1) with false by lia. replace (y =? -1) with false by lia. apply Z.min_comm.
  - assert (Hm : forall z, 0 <= z -> (Z.min a z =? -1) = false) by (intros z Hz; apply Z.eqb_neq, Z.min_case; lia).
    rewrite !Hm, <- !Z.min_assoc, (Z.min_comm x y) by assumption. reflexivity.
Qed.

(* the drop of one remote endpoint (what disconnect_player_at_frame does for any of its handles) *)
Definition drop_ep (ep : nat) (e : epview) (lf : Z) (p : p2p) : p2p :=
  let p1 := with_remotes (with_status p (mark (ev_handles e) (ps_status p)))
                         (updz (ps_remotes p) ep (mkev false (ev_status e) (ev_handles e))) in
  if lf + 1 <? s_current (ps_sync p) then with_disc_frame p1 (keep_min (ps_disc_frame p) (lf + 1)) else p1.

Theorem drop_two_endpoints_commute : forall p ep1 ep2 e1 e2 lf1 lf2,
  ep1 <> ep2 -> 0 <= lf1 + 1 -> 0 <= lf2 + 1 ->
  drop_ep ep2 e2 lf2 (drop_ep ep1 e1 lf1 p) = drop_ep ep1 e1 lf1 (drop_ep ep2 e2 lf2 p).
Proof.
  intros p ep1 ep2 e1 e2 lf1 lf2 Hne Hl1 Hl2. unfold drop_ep.
  (* neither drop moves the current frame: both tests are made on p *)
  destruct (lf1 + 1 <? s_current (ps_sync p)) eqn:E1; destruct (lf2 + 1 <? s_current (ps_sync p)) eqn:E2;
    cbn [with_disc_frame with_remotes with_status ps_sync ps_status ps_remotes ps_disc_frame s_current];
    rewrite ?E1, ?E2;
    cbn [with_disc_frame with_remotes with_status ps_sync ps_status ps_remotes ps_disc_frame
         ps_nplayers ps_maxpred ps_sparse ps_running ps_kinds ps_spec_handles ps_spectators ps_next_spec ps_pending ps_outgoing ps_last_sent_out].
  all: rewrite (mark_comm (ev_handles e1) (ev_handles e2)), (updz_comm (ps_remotes p) ep1 ep2) by exact Hne.
  all: try rewrite (keep_min_comm (ps_disc_frame p) (lf1 + 1) (lf2 + 1)) by lia.
  all: reflexivity.
Qed.

Definition drop_at (ep : nat) (lf : Z) (p : p2p) : p2p :=
  match nth_error (ps_remotes p) ep with Some e => drop_ep ep e lf p | None => p end.

Lemma drop_at_kind : forall ep lf p h, kind_at (drop_at ep lf p) h = kind_at p h.
Proof. intros. unfold drop_at, drop_ep. destruct (nth_error _ ep); [destruct (_ <? _)|]; reflexivity. Qed.

Lemma drop_at_last : forall ep lf p h, cs_last (stat_at (drop_at ep lf p) h) = cs_last (stat_at p h).
Proof.
  intros. unfold drop_at, drop_ep. destruct (nth_error _ ep) as [e|]; [|reflexivity].
  transitivity (cs_last (nth (Z.to_nat h) (mark (ev_handles e) (ps_status p)) cs_default)); [|apply mark_last].
  destruct (_ <? _); reflexivity.
Qed.

Lemma drop_at_remotes : forall ep lf p,
  ps_remotes (drop_at ep lf p) =
    match nth_error (ps_remotes p) ep with
    | Some e => updz (ps_remotes p) ep (mkev false (ev_status e) (ev_handles e))
    | None => ps_remotes p
    end.
Proof. intros. unfold drop_at, drop_ep. destruct (nth_error _ ep); [destruct (_ <? _)|]; reflexivity. Qed.

Lemma drop_at_length : forall ep lf p, length (ps_remotes (drop_at ep lf p)) = length (ps_remotes p).
Proof. intros. rewrite drop_at_remotes. destruct (nth_error _ ep); [apply updz_length|reflexivity]. Qed.

Lemma drop_at_other : forall ep lf p ep', ep <> ep' -> nth_error (ps_remotes (drop_at ep lf p)) ep' = nth_error (ps_remotes p) ep'.
Proof. intros ep lf p ep' H. rewrite drop_at_remotes. destruct (nth_error _ ep); [apply nth_error_updz_other; exact H|reflexivity]. Qed.

Lemma drop_at_comm : forall ep1 ep2 p lf1 lf2, ep1 <> ep2 -> 0 <= lf1 + 1 -> 0 <= lf2 + 1 ->
  drop_at ep2 lf2 (drop_at ep1 lf1 p) = drop_at ep1 lf1 (drop_at ep2 lf2 p).
Proof.
  intros ep1 ep2 p lf1 lf2 Hne H1 H2. unfold drop_at at 1 3.
  rewrite !drop_at_other by congruence. unfold drop_at.
  destruct (nth_error (ps_remotes p) ep1) as [e1|], (nth_error (ps_remotes p) ep2) as [e2|]; try reflexivity.
  apply drop_two_endpoints_commute; assumption.
Qed.

Lemma kind_remote_player : forall p h ep, kind_at p h = Some (KRemote ep) -> (h <? ps_nplayers p) = true.
Proof.
  intros p h ep H. unfold kind_at in H. destruct (h <? 0); [discriminate|]. destruct (h <? ps_nplayers p); [reflexivity|].
  destruct ((fix find (l : list (Z * Z)) := match l with [] => None | (k, e0) :: r => if k =? h then Some e0 else find r end) (ps_spec_handles p)); discriminate.
Qed.

Lemma disconnect_is_drop : forall p h lf ep,
  kind_at p h = Some (KRemote (Z.of_nat ep)) -> (ep < length (ps_remotes p))%nat ->
  disconnect_player_at_frame p h lf = Ok (drop_at ep lf p).
Proof.
  intros p h lf ep Hk He. unfold disconnect_player_at_frame, drop_at. rewrite Hk, Nat2Z.id.
  destruct (nth_error (ps_remotes p) ep) eqn:E; [reflexivity|]. apply nth_error_None in E. lia.
Qed.

Definition drops (ep : nat) (lfs : list Z) (p : p2p) : p2p := fold_left (fun p lf => drop_at ep lf p) lfs p.

Lemma fold_left_preserves {A B C} (f : A -> B -> A) (F : A -> C) :
  (forall a x, F (f a x) = F a) -> forall l a, F (fold_left f l a) = F a.
Proof. intros H. induction l as [|x l IH]; intros a; [reflexivity|]. cbn [fold_left]. rewrite IH. apply H. Qed.

Lemma fold_left_comm {A B C} (f : A -> B -> A) (g : A -> C -> A) (P : B -> Prop) (Q : C -> Prop) :
  (forall a x y, P x -> Q y -> g (f a x) y = f (g a y) x) ->
  forall xs ys a, Forall P xs -> Forall Q ys -> fold_left g ys (fold_left f xs a) = fold_left f xs (fold_left g ys a).
Proof.
  intros H xs ys a Hx Hy. revert a. induction Hx as [|x xs Px _ IH]; intros a; [reflexivity|].
  cbn [fold_left]. rewrite IH. f_equal. clear IH. revert a. induction Hy as [|y ys Qy _ IH]; intros a; [reflexivity|].
  cbn [fold_left]. rewrite <- IH, H by assumption. reflexivity.
Qed.

Lemma drops_kind : forall ep lfs p h, kind_at (drops ep lfs p) h = kind_at p h.
Proof. intros. apply (fold_left_preserves _ (fun q => kind_at q h)). intros. apply drop_at_kind. Qed.
Lemma drops_last : forall ep lfs p h, cs_last (stat_at (drops ep lfs p) h) = cs_last (stat_at p h).
Proof. intros. apply (fold_left_preserves _ (fun q => cs_last (stat_at q h))). intros. apply drop_at_last. Qed.
Lemma drops_length : forall ep lfs p, length (ps_remotes (drops ep lfs p)) = length (ps_remotes p).
Proof. intros. apply (fold_left_preserves _ (fun q => length (ps_remotes q))). intros. apply drop_at_length. Qed.

Lemma ev_disconnected_is_drops : forall hs p ep,
  (forall h, In h hs -> kind_at p h = Some (KRemote (Z.of_nat ep))) -> (ep < length (ps_remotes p))%nat ->
  ev_disconnected p hs = Ok (drops ep (map (fun h => cs_last (stat_at p h)) hs) p).
Proof.
  induction hs as [|h hs IH]; intros p ep Hk He; [reflexivity|].
  assert (Hkh : kind_at p h = Some (KRemote (Z.of_nat ep))) by (apply Hk; left; reflexivity).
  unfold ev_disconnected. cbn [fold_left res_bind map drops].
  rewrite (kind_remote_player _ _ _ Hkh), (disconnect_is_drop p h _ ep Hkh He).
  set (p1 := drop_at ep (cs_last (stat_at p h)) p).
  change (fold_left _ hs (Ok p1)) with (ev_disconnected p1 hs).
  rewrite (IH p1 ep) by (first [intros h0 Hin; unfold p1; rewrite drop_at_kind; apply Hk; right; exact Hin
                               | unfold p1; rewrite drop_at_length; exact He]).
  unfold drops. do 2 f_equal. apply map_ext. intros h0. apply drop_at_last.
Qed.

Theorem disconnected_events_commute : forall p hs1 hs2 ep1 ep2,
  ep1 <> ep2 -> (ep1 < length (ps_remotes p))%nat -> (ep2 < length (ps_remotes p))%nat ->
  (forall h, In h hs1 -> kind_at p h = Some (KRemote (Z.of_nat ep1))) ->
  (forall h, In h hs2 -> kind_at p h = Some (KRemote (Z.of_nat ep2))) ->
  Forall (fun c => -1 <= cs_last c) (ps_status p) ->
  res_bind (ev_disconnected p hs1) (fun p1 => ev_disconnected p1 hs2) =
  res_bind (ev_disconnected p hs2) (fun p2 => ev_disconnected p2 hs1).
Proof.
  intros p hs1 hs2 ep1 ep2 Hne L1 L2 K1 K2 Hst.
  assert (Hlf : forall hs, Forall (fun lf => 0 <= lf + 1) (map (fun h => cs_last (stat_at p h)) hs)).
  { intros hs. apply Forall_forall. intros lf Hin. apply in_map_iff in Hin. destruct Hin as (h & <- & _).
    unfold stat_at. destruct (Nat.lt_ge_cases (Z.to_nat h) (length (ps_status p))) as [Hl|Hl].
    - rewrite Forall_forall in Hst. pose proof (Hst _ (nth_In _ cs_default Hl)). lia.
    - rewrite nth_overflow by lia. cbn. unfold NULL. lia. }
  (* the second event finds the kinds, the endpoints and the last frames of the statuses as they were *)
  assert (Hsnd : forall ep ep' lfs hs, (forall h, In h hs -> kind_at p h = Some (KRemote (Z.of_nat ep'))) ->
            (ep' < length (ps_remotes p))%nat ->
            ev_disconnected (drops ep lfs p) hs = Ok (drops ep' (map (fun h => cs_last (stat_at p h)) hs) (drops ep lfs p))).
  { intros ep ep' lfs hs K L. rewrite (ev_disconnected_is_drops hs _ ep').
    - do 2 f_equal. apply map_ext. intros h. apply drops_last.
    - intros h Hin. rewrite drops_kind. apply K. exact Hin.
    - rewrite drops_length. exact L. }
  rewrite (ev_disconnected_is_drops hs1 p ep1 K1 L1), (ev_disconnected_is_drops hs2 p ep2 K2 L2). cbn [res_bind].
  rewrite (Hsnd ep1 ep2 _ hs2 K2 L2), (Hsnd ep2 ep1 _ hs1 K1 L1). f_equal.
  apply (fold_left_comm _ _ (fun lf => 0 <= lf + 1) (fun lf => 0 <= lf + 1)); [|apply Hlf|apply Hlf].
  intros q lf1 lf2 B1 B2. apply drop_at_comm; assumption.
Qed.

(* ggrs before commit e6b12d3: the pending disconnect frame is overwritten, so the order matters *)
Definition drop_ep_old (ep : nat) (e : epview) (lf : Z) (p : p2p) : p2p :=
  let p1 := with_remotes (with_status p (mark (ev_handles e) (ps_status p)))
                         (updz (ps_remotes p) ep (mkev false (ev_status e) (ev_handles e))) in
  if lf + 1 <? s_current (ps_sync p) then with_disc_frame p1 (lf + 1) else p1.

(* ev_input as a local update of one status entry and one queue *)
Definition input_effect (p : p2p) (pl f v : Z) : res (option (queue * cstat)) :=
  if negb (pl <? ps_nplayers p) then Panic else
  if cs_disc (stat_at p pl) then Ok None else
  let cur := cs_last (stat_at p pl) in
  if negb ((cur =? NULL) || (cur + 1 =? f)) then Panic else
  if (pl <? 0) || (Z.of_nat (length (s_queues (ps_sync p))) <=? pl) then Panic else
  res_bind (add_input (qnth (ps_sync p) pl) f v) (fun '(q', _) => Ok (Some (q', mkcs false f))).

Definition apply_effect (p : p2p) (pl : Z) (e : option (queue * cstat)) : p2p :=
  match e with
  | None => p
  | Some (q', st') => with_status (with_sync p (with_queues (ps_sync p) (updz (s_queues (ps_sync p)) (Z.to_nat pl) q')))
                                  (set_stat (ps_status p) pl st')
  end.

Lemma ev_input_effect : forall p pl f v,
  ev_input p pl f v = res_bind (input_effect p pl f v) (fun e => Ok (apply_effect p pl e)).
Proof.
  intros p pl f v. unfold ev_input, input_effect, add_remote_input.
  destruct (negb (pl <? ps_nplayers p)); [reflexivity|]. destruct (cs_disc (stat_at p pl)); [reflexivity|].
  destruct (negb _); [reflexivity|]. destruct ((pl <? 0) || _); [reflexivity|].
  destruct (add_input (qnth (ps_sync p) pl) f v) as [[q' r]| |]; reflexivity.
Qed.

Lemma effect_indep : forall p pl1 pl2 e f v, 0 <= pl1 -> 0 <= pl2 -> pl1 <> pl2 ->
  input_effect (apply_effect p pl1 e) pl2 f v = input_effect p pl2 f v.
Proof.
  intros p pl1 pl2 e f v H1 H2 Hne. destruct e as [[q' st']|]; [|reflexivity].
  unfold input_effect, apply_effect, stat_at, qnth, set_stat.
  cbn [with_status with_sync with_queues ps_nplayers ps_status ps_sync s_queues].
  rewrite !nth_updz, updz_length.
  assert (Nat.eqb (Z.to_nat pl1) (Z.to_nat pl2) = false) as -> by (apply Nat.eqb_neq; lia). cbn [andb]. reflexivity.
Qed.

Lemma apply_comm : forall p pl1 pl2 e1 e2, 0 <= pl1 -> 0 <= pl2 -> pl1 <> pl2 ->
  apply_effect (apply_effect p pl1 e1) pl2 e2 = apply_effect (apply_effect p pl2 e2) pl1 e1.
Proof.
  intros p pl1 pl2 e1 e2 H1 H2 Hne. destruct e1 as [[q1 s1]|], e2 as [[q2 s2]|]; try reflexivity.
  unfold apply_effect, set_stat. cbn [with_status with_sync with_queues ps_status ps_sync s_queues
    ps_nplayers ps_maxpred ps_sparse ps_disc_frame ps_running ps_kinds ps_spec_handles ps_remotes ps_spectators ps_next_spec ps_pending ps_outgoing ps_last_sent_out
    s_maxpred s_cells s_last_confirmed s_last_saved s_current].
  rewrite (updz_comm (s_queues (ps_sync p)) (Z.to_nat pl1) (Z.to_nat pl2)) by lia.
  rewrite (updz_comm (ps_status p) (Z.to_nat pl1) (Z.to_nat pl2)) by lia. reflexivity.
Qed.

Lemma ev_input_pair : forall p pl1 f1 v1 pl2 f2 v2, 0 <= pl1 -> 0 <= pl2 -> pl1 <> pl2 ->
  res_bind (ev_input p pl1 f1 v1) (fun q => ev_input q pl2 f2 v2) =
  res_bind (input_effect p pl1 f1 v1) (fun e1 => res_bind (input_effect p pl2 f2 v2) (fun e2 =>
    Ok (apply_effect (apply_effect p pl1 e1) pl2 e2))).
Proof.
  intros p pl1 f1 v1 pl2 f2 v2 H1 H2 Hne. rewrite ev_input_effect.
  destruct (input_effect p pl1 f1 v1) as [e1| |]; [|reflexivity|reflexivity].
  cbn [res_bind]. rewrite ev_input_effect, effect_indep by assumption. reflexivity.
Qed.
