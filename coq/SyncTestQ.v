(* C13, queue level: what one input queue of a SyncTestSession goes through during one call of
   advance_frame (reset + re-reads of the rollback, the submission of the frame's input, the read of
   the frame, the discard), on top of the ring invariant RInv of QueueProofs.v.
   Two regimes: the normal one (RInv with the true history) and the degenerate one of
   check_distance = 0 with input_delay = 0, where discard_confirmed_frames takes its
   "delete all but most recent" branch on every call (tail := head, length := 1). *)
From GGRS Require Import Base Consts Queue QueueProofs Sync P2P ModelLists SyncTest.
From GGRS Require Import LiaSetup.
Open Scope Z_scope.

Lemma st_zrange_eq : st_zrange = zrange_from.
Proof. reflexivity. Qed.

Lemma nth_map_lt {A B} (f : A -> B) : forall (l : list A) i d d', (i < length l)%nat -> nth i (map f l) d' = f (nth i l d).
Proof. induction l as [|y r IH]; intros [|i] d d' H; cbn in *; try lia; auto. apply IH. lia. Qed.

Lemma list_eq_nth {A} : forall (l m : list A) d, length l = length m ->
  (forall i, (i < length l)%nat -> nth i l d = nth i m d) -> l = m.
Proof. intros l m d HL H. exact (nth_ext l m d d HL H). Qed.

Lemma st_slot_lt : forall m f, 0 < m -> (Z.to_nat (f mod m) < Z.to_nat m)%nat.
Proof. intros m f Hm. pose proof (Z.mod_pos_bound f m Hm) as B. apply Z2Nat.inj_lt; lia. Qed.

Lemma st_slot_inj : forall m f g, 0 < m -> Z.abs (f - g) < m ->
  Z.to_nat (f mod m) = Z.to_nat (g mod m) -> f = g.
Proof.
  intros m f g Hm Hfg H. apply (mod_inj_near m f g Hm Hfg).
  apply Z2Nat.inj; [apply Z.mod_pos_bound; exact Hm..|exact H].
Qed.

Lemma add_input_next : forall q f v,
  1 <= f -> q_last_user q = f - 1 -> q_last_added q = f - 1 -> q_first q = false -> q_delay q = 0 ->
  pi_frame (slot (q_inputs q) (prev_pos (q_head q))) = f - 1 -> pi_frame (q_pred q) = NULL ->
  q_length q < QLEN ->
  add_input q f v =
    Ok (mkq ((q_head q + 1) mod QLEN) (q_tail q) (q_length q + 1) false f f (q_first_incorrect q)
            (q_last_requested q) (q_delay q) (upd (q_inputs q) (Z.to_nat (q_head q)) (mkpi f v)) (q_pred q), f).
Proof.
  intros q f v Hf Us La Fi De Pv Pr Ln.
  rewrite add_input_seq by (try right; lia).
  (* advance_queue_head: the expected frame f - 1 + 1 is the input frame f + 0, nothing to fill *)
  unfold advance_queue_head. cbn [set_last_user q_first q_inputs q_head q_delay].
  rewrite Fi, Pv, De, Z.add_0_r, Z.sub_add, Z.ltb_irrefl, Z.sub_diag.
  cbn [Z.to_nat fill_to]. rewrite Z.leb_refl.
  cbn [res_bind set_last_user q_inputs q_head].
  rewrite Pv, Z.sub_add, Z.eqb_refl, orb_true_r.
  cbn [negb res_bind].
  assert ((f =? NULL) = false) as -> by (unfold NULL; lia).
  (* add_input_by_frame: f follows last_added and the previous slot, the ring has room, no prediction *)
  unfold add_input_by_frame.
  cbn [set_last_user q_head q_last_added q_inputs q_length q_pred q_tail q_first q_last_user q_first_incorrect q_last_requested q_delay].
  rewrite La, Pv, Pr, Z.sub_add, !Z.eqb_refl, !orb_true_r.
  cbn [negb].
  assert ((QLEN <? q_length q + 1) = false) as -> by lia.
  rewrite De. reflexivity.
Qed.

Lemma input_at_tail : forall predict q f v,
  q_first_incorrect q = NULL -> pi_frame (q_pred q) = NULL ->
  slot (q_inputs q) (q_tail q) = mkpi f v -> 0 < q_length q -> 0 <= q_tail q < QLEN ->
  input predict q f = Ok (set_last_requested q f, (v, Confirmed)).
Proof.
  intros predict q f v Fi Pr Sl Ln Tl. unfold input, set_last_requested.
  rewrite Fi, Pr, Sl. cbn [pi_frame]. rewrite Z.ltb_irrefl.
  rewrite Z.sub_diag, Z.add_0_l, (Z.mod_small _ _ Tl), Sl.
  assert ((0 <? q_length q) = true) as -> by lia.
  cbn [pi_frame pi_val]. rewrite !Z.eqb_refl. reflexivity.
Qed.

(* the discard up to the newest input: "delete all but most recent" *)
Lemma discard_all_eq : forall q f, q_last_requested q = f -> f <> NULL -> q_last_added q <= f ->
  discard_confirmed_frames q f =
    mkq (q_head q) (q_head q) 1 (q_first q) (q_last_added q) (q_last_user q) (q_first_incorrect q)
        (q_last_requested q) (q_delay q) (q_inputs q) (q_pred q).
Proof.
  intros q f HR Hf La. unfold discard_confirmed_frames.
  rewrite HR, (proj2 (Z.eqb_neq f NULL) Hf), Z.min_id, (proj2 (Z.leb_le _ _) La). reflexivity.
Qed.

Lemma save_current_state_eq : forall y, 0 <= s_current y ->
  save_current_state y =
    Ok (mks (s_maxpred y) (updz (s_cells y) (Z.to_nat (cell_pos y (s_current y))) (s_current y))
            (s_last_confirmed y) (s_current y) (s_current y) (s_queues y),
        RSave (s_current y)).
Proof.
  intros y H. unfold save_current_state.
  assert ((s_current y <? 0) = false) as -> by lia. reflexivity.
Qed.

Definition sync_resaved (y : sync) : sync :=
  mks (s_maxpred y) (s_cells y) (s_last_confirmed y) (s_current y) (s_current y) (s_queues y).

Lemma save_held_eq : forall y, 0 <= s_current y -> cell_frame y (s_current y) = s_current y ->
  save_current_state y = Ok (sync_resaved y, RSave (s_current y)).
Proof.
  intros y H0 Hc. rewrite (save_current_state_eq y H0). unfold sync_resaved, cell_frame in *.
  rewrite <- Hc at 2. rewrite updz_nth_self. reflexivity.
Qed.

Lemma load_frame_eq : forall y f,
  0 <= f < s_current y -> s_current y - s_maxpred y <= f -> cell_frame y f = f ->
  load_frame y f = Ok (with_current y f, RLoad f).
Proof.
  intros y f Hf Hw Hc. unfold load_frame. rewrite Hc, Z.eqb_refl.
  assert ((f =? NULL) = false) as -> by (unfold NULL; lia).
  assert ((f <? s_current y) = true) as -> by lia.
  assert ((f <? s_current y - s_maxpred y) = false) as -> by lia.
  assert ((f <? 0) = false) as -> by lia.
  reflexivity.
Qed.

Lemma add_local_input_eq : forall y h f v, f = s_current y -> (h < length (s_queues y))%nat ->
  add_local_input y (Z.of_nat h) f v =
    res_bind (add_input (nth h (s_queues y) q_new) f v) (fun '(q', r) =>
      Ok (with_queues y (updz (s_queues y) h q'), r)).
Proof.
  intros y h f v -> H. unfold add_local_input, qnth. rewrite Z.eqb_refl, Nat2Z.id.
  assert ((Z.of_nat h <? 0) || (Z.of_nat (length (s_queues y)) <=? Z.of_nat h) = false) as -> by lia.
  reflexivity.
Qed.

Lemma set_queue_delay_eq : forall y h dl, (h < length (s_queues y))%nat ->
  set_queue_delay y (Z.of_nat h) dl =
    res_bind (set_frame_delay (nth h (s_queues y) q_new) dl) (fun '(q', fills) =>
      Ok (with_queues y (updz (s_queues y) h q'), fills)).
Proof.
  intros y h dl H. unfold set_queue_delay, qnth. rewrite Nat2Z.id.
  assert ((Z.of_nat h <? 0) || (Z.of_nat (length (s_queues y)) <=? Z.of_nat h) = false) as -> by lia.
  reflexivity.
Qed.

Lemma max_first_incorrect_null : forall qs,
  Forall (fun q => q_first_incorrect q = NULL) qs -> max_first_incorrect qs = NULL.
Proof.
  unfold max_first_incorrect. induction 1 as [|q qs Hq _ IH]; [reflexivity|].
  cbn [fold_left]. rewrite Hq. exact IH.
Qed.

Lemma set_last_confirmed_frame_eq : forall y f,
  max_first_incorrect (s_queues y) = NULL -> f <= s_current y ->
  set_last_confirmed_frame y f false =
    Ok (mks (s_maxpred y) (s_cells y) f (s_last_saved y) (s_current y)
            (if 0 <? f then map (fun q => discard_confirmed_frames q (f - 1)) (s_queues y) else s_queues y)).
Proof.
  intros y f Hfi Hf. unfold set_last_confirmed_frame. rewrite Hfi, Z.eqb_refl, (Z.min_l _ _ Hf). reflexivity.
Qed.

Lemma sync_inputs_go_confirmed : forall predict cur qs st vals,
  length st = length qs -> length vals = length qs ->
  Forall (fun x => cs_disc x = false) st ->
  (forall p, (p < length qs)%nat ->
     input predict (nth p qs q_new) cur = Ok (set_last_requested (nth p qs q_new) cur, (nth p vals 0, Confirmed))) ->
  sync_inputs_go predict cur qs st =
    Ok (map (fun q => set_last_requested q cur) qs, map (fun v => (v, Confirmed)) vals).
Proof.
  intros predict cur. induction qs as [|q qs IH]; intros st vals Hs Hv Hd H.
  - destruct st; [|discriminate]. destruct vals; [|discriminate]. reflexivity.
  - destruct st as [|c st]; [discriminate|]. destruct vals as [|v vals]; [discriminate|].
    cbn [sync_inputs_go]. rewrite (Forall_inv Hd). cbn [andb].
    pose proof (H 0%nat (Nat.lt_0_succ _)) as H0. cbn [nth] in H0. rewrite H0. cbn [res_bind].
    rewrite (IH st vals); [reflexivity|injection Hs; auto|injection Hv; auto|exact (Forall_inv_tail Hd)|].
    intros p Hp. apply (H (S p)). apply -> Nat.succ_lt_mono. exact Hp.
Qed.

Section OneQueue.
Variables k d : Z.                (* input delay, check distance *)
Variable u : Z -> Z.              (* the value the user submits at user frame j *)

Definition st_dl (f : Z) : Z := if f <? k then 0 else u (f - k).
Definition st_qh (n : nat) : list Z := map st_dl (st_zrange 0 n).

Lemma hlen_qh : forall n, hlen (st_qh n) = Z.of_nat n.
Proof. intro n. unfold hlen, st_qh. rewrite map_length, zrange_length. reflexivity. Qed.

Lemma hval_qh : forall n f, 0 <= f < Z.of_nat n -> hval (st_qh n) f = st_dl f.
Proof.
  intros n f Hf. unfold hval, st_qh.
  rewrite (nth_map_lt st_dl _ _ 0 0) by (rewrite zrange_length; lia).
  rewrite zrange_nth by lia. f_equal. lia.
Qed.

Lemma qh_S : forall n, st_qh (S n) = st_qh n ++ [st_dl (Z.of_nat n)].
Proof. intro n. unfold st_qh. rewrite zrange_S, map_app. reflexivity. Qed.

Lemma qh_zeros : forall n, Z.of_nat n <= k -> st_qh n = repeat 0 n.
Proof.
  induction n as [|n IH]; intro H; [reflexivity|].
  rewrite qh_S, IH by lia. unfold st_dl. assert ((Z.of_nat n <? k) = true) as -> by lia.
  symmetry. apply (repeat_cons n 0).
Qed.

(* the tail after the discards of the calls before call c *)
Definition st_lo (c : Z) : Z := Z.max 0 (c - 1 - d).
(* length of the queue's history at the start of call c *)
Definition st_hn (c : Z) : nat := Z.to_nat (if c =? 0 then 0 else c + k).

Record QN (c lo : Z) (q : queue) : Prop := {
  qn_ring : RInv q (st_qh (st_hn c)) lo;
  qn_delay : q_delay q = k;
  qn_user : q_last_user q = c - 1;
  qn_pred : pi_frame (q_pred q) = NULL;
  qn_fi : q_first_incorrect q = NULL }.

Lemma QN_new : QN 0 0 (with_delay q_new k).
Proof.
  constructor; cbn; try reflexivity.
  apply RInv_with_delay. apply RInv_new.
Qed.

Lemma QN_req : forall c lo q f, QN c lo q -> QN c lo (set_last_requested q f).
Proof.
  intros c lo q f [I D U P F]. constructor; cbn; auto.
  eapply RInv_ext; [exact I|reflexivity..].
Qed.

Lemma QN_reset : forall c lo q, QN c lo q -> QN c lo (reset_prediction q).
Proof.
  intros c lo q [I D U P F]. constructor; cbn; auto.
  apply reset_ok. exact I.
Qed.

Lemma QN_input : forall predict c lo q f, QN c lo q -> lo <= f < Z.of_nat (st_hn c) ->
  input predict q f = Ok (set_last_requested q f, (st_dl f, Confirmed)).
Proof.
  intros predict c lo q f [I D U P F] Hf.
  rewrite (input_confirmed predict q _ lo f I F P) by (rewrite hlen_qh; lia).
  destruct (ri_low _ _ _ I) as (L0 & _).
  rewrite hval_qh by lia. reflexivity.
Qed.

Lemma QN_add : forall c lo q, 0 <= k -> 0 <= c -> QN c lo q -> c + k + 1 - lo <= QLEN ->
  exists q' r, add_input q c (u c) = Ok (q', r) /\ QN (c + 1) lo q'.
Proof.
  intros c lo q Hk Hc [I D U P F] Hcp.
  assert (Hs : q_last_user q = NULL \/ c = q_last_user q + 1) by (right; lia).
  destruct (add_input_ok q _ lo c (u c) I P ltac:(lia) Hs Hc) as [_ Hacc].
  rewrite D, hlen_qh in Hacc.
  assert (Hle : Z.of_nat (st_hn c) <= c + k) by (unfold st_hn; destruct (Z.eqb_spec c 0); lia).
  destruct (Hacc Hle ltac:(lia)) as (q' & E & I' & D' & U' & R' & F' & P').
  exists q', (c + k). split; [exact E|].
  constructor; try congruence; [|lia].
  assert (Hh : st_qh (st_hn c) ++ repeat (hlast (st_qh (st_hn c))) (Z.to_nat (c + k - Z.of_nat (st_hn c))) ++ [u c]
               = st_qh (st_hn (c + 1))).
  { unfold st_hn. assert ((c + 1 =? 0) = false) as -> by lia.
    replace (Z.to_nat (c + 1 + k)) with (S (Z.to_nat (c + k))) by lia.
    rewrite qh_S. rewrite (Z2Nat.id (c + k)) by lia. unfold st_dl.
    assert ((c + k <? k) = false) as -> by lia. replace (c + k - k) with c by lia.
    destruct (Z.eqb_spec c 0) as [->|Hn].
    - cbn [Z.to_nat st_qh st_zrange map hlast last app Z.of_nat]. rewrite Z.sub_0_r, Z.add_0_l.
      rewrite (qh_zeros (Z.to_nat k)) by lia. reflexivity.
    - rewrite Z2Nat.id by lia. rewrite Z.sub_diag. cbn [Z.to_nat repeat app]. reflexivity. }
  rewrite <- Hh. exact I'.
Qed.

Lemma QN_fi : forall c lo q, QN c lo q -> q_first_incorrect q = NULL.
Proof. intros c lo q H. apply (qn_fi _ _ _ H). Qed.

Lemma QN_discard : forall c lo q, 0 <= k -> 0 <= d -> 0 <= c -> QN (c + 1) lo q -> q_last_requested q = c -> 0 < d + k ->
  QN (c + 1) (Z.max lo (c - d)) (discard_confirmed_frames q (c - d)).
Proof.
  intros c lo q Hk Hd Hc [I D U P F] HR Hdk.
  assert (Hn : Z.of_nat (st_hn (c + 1)) = c + 1 + k) by (unfold st_hn; assert ((c + 1 =? 0) = false) as -> by lia; lia).
  destruct (discard_ok q _ lo (c - d) I ltac:(rewrite hlen_qh; lia)) as (I' & D' & U' & R' & F' & P').
  constructor; try congruence.
  replace (Z.max lo (c - d)) with (discard_low q lo (c - d)); [exact I'|].
  unfold discard_low. rewrite HR. assert ((c =? NULL) = false) as -> by (unfold NULL; lia). lia.
Qed.

(* the degenerate regime: k = 0 and d = 0, calls c >= 1 *)
Record QD (c : Z) (q : queue) : Prop := {
  qd_len : Z.of_nat (length (q_inputs q)) = QLEN;
  qd_head : q_head q = c mod QLEN;
  qd_tail : q_tail q = c mod QLEN;
  qd_length : q_length q = 1;
  qd_first : q_first q = false;
  qd_last : q_last_added q = c - 1;
  qd_user : q_last_user q = c - 1;
  qd_delay : q_delay q = 0;
  qd_pred : pi_frame (q_pred q) = NULL;
  qd_fi : q_first_incorrect q = NULL;
  qd_prev : pi_frame (slot (q_inputs q) ((c - 1) mod QLEN)) = c - 1 }.

(* after the submission of frame c *)
Record QDA (c : Z) (q : queue) : Prop := {
  qa_len : Z.of_nat (length (q_inputs q)) = QLEN;
  qa_head : q_head q = (c + 1) mod QLEN;
  qa_tail : q_tail q = c mod QLEN;
  qa_length : q_length q = 2;
  qa_first : q_first q = false;
  qa_last : q_last_added q = c;
  qa_user : q_last_user q = c;
  qa_delay : q_delay q = 0;
  qa_pred : pi_frame (q_pred q) = NULL;
  qa_fi : q_first_incorrect q = NULL;
  qa_slot : slot (q_inputs q) (c mod QLEN) = mkpi c (u c) }.

Lemma QD_req : forall c q f, QD c q -> QD c (set_last_requested q f).
Proof. intros c q f H. destruct H. constructor; cbn; auto. Qed.
Lemma QD_reset : forall c q, QD c q -> QD c (reset_prediction q).
Proof. intros c q H. destruct H. constructor; cbn; auto. Qed.

Lemma QD_add : forall c q, 1 <= c -> QD c q -> 2 <= QLEN ->
  exists q', add_input q c (u c) = Ok (q', c) /\ QDA c q'.
Proof.
  intros c q Hc [L H T Ln Fi La Us De Pr Fic Pv] HQ. pose proof QLEN_pos as HQP.
  rewrite <- (prev_pos_mod c), <- H in Pv.
  eexists. split; [apply add_input_next; auto; lia|].
  assert (Hh : 0 <= q_head q < QLEN) by (rewrite H; apply Z.mod_pos_bound; exact HQP).
  constructor; cbn [q_inputs q_head q_tail q_length q_first q_last_added q_last_user q_delay q_pred q_first_incorrect]; auto.
  - rewrite upd_length. exact L.
  - rewrite H. apply Zplus_mod_idemp_l.
  - rewrite Ln. reflexivity.
  - rewrite <- H. apply slot_upd_same. lia.
Qed.

Lemma QDA_input : forall predict c q, QDA c q ->
  input predict q c = Ok (set_last_requested q c, (u c, Confirmed)).
Proof.
  intros predict c q [L H T Ln Fi La Us De Pr Fic Sl]. pose proof QLEN_pos as HQP.
  apply input_at_tail; rewrite ?T, ?Ln; auto. apply Z.mod_pos_bound. exact HQP.
Qed.

Lemma QDA_finish : forall c q, 0 <= c -> QDA c q ->
  QD (c + 1) (discard_confirmed_frames (set_last_requested q c) c).
Proof.
  intros c q Hc [L H T Ln Fi La Us De Pr Fic Sl].
  rewrite discard_all_eq by (cbn [set_last_requested q_last_requested q_last_added]; unfold NULL; lia).
  constructor; cbn [set_last_requested q_inputs q_head q_tail q_length q_first q_last_added q_last_user q_delay q_pred q_first_incorrect];
    rewrite ?Z.add_simpl_r; auto.
  rewrite Sl. reflexivity.
Qed.

Lemma QN1_finish_deg : forall q, k = 0 -> d = 0 -> QN 1 0 q -> q_last_requested q = 0 ->
  QD 1 (discard_confirmed_frames q 0).
Proof.
  intros q Hk0 Hd0 [I D U P F] HR.
  assert (Hn : st_hn 1 = 1%nat) by (unfold st_hn; rewrite Hk0; reflexivity).
  rewrite Hn in I.
  pose proof (ri_len _ _ _ I) as L. pose proof (ri_head _ _ _ I) as H. pose proof (ri_last _ _ _ I) as La.
  pose proof (ri_first _ _ _ I) as Fi. pose proof (ri_slots _ _ _ I 0) as Sl.
  change (hlen (st_qh 1)) with 1 in *.
  rewrite discard_all_eq by (rewrite ?La; unfold NULL; lia).
  constructor; cbn [q_inputs q_head q_tail q_length q_first q_last_added q_last_user q_delay q_pred q_first_incorrect];
    try assumption; try congruence.
  change (1 - 1) with 0. rewrite Sl by lia. reflexivity.
Qed.

Definition st_deg : bool := (k =? 0) && (d =? 0).

(* at the start of call c *)
Definition QI (c : Z) (q : queue) : Prop :=
  if st_deg && (0 <? c) then QD c q else QN c (st_lo c) q.
(* after the submission of frame c *)
Definition QA (c : Z) (q : queue) : Prop :=
  if st_deg && (0 <? c) then QDA c q else QN (c + 1) (st_lo c) q.

Lemma QI_new : 0 <= d -> QI 0 (with_delay q_new k).
Proof. intro Hd. unfold QI. rewrite andb_false_r. replace (st_lo 0) with 0 by (unfold st_lo; lia). apply QN_new. Qed.

Lemma QI_req : forall c q f, QI c q -> QI c (set_last_requested q f).
Proof. unfold QI. intros c q f. destruct (st_deg && (0 <? c)); [apply QD_req|apply QN_req]. Qed.

Lemma QI_reset : forall c q, QI c q -> QI c (reset_prediction q).
Proof. unfold QI. intros c q. destruct (st_deg && (0 <? c)); [apply QD_reset|apply QN_reset]. Qed.

Lemma QI_fi : forall c q, QI c q -> q_first_incorrect q = NULL.
Proof. unfold QI. intros c q. destruct (st_deg && (0 <? c)); intro H; [apply (qd_fi _ _ H)|apply (qn_fi _ _ _ H)]. Qed.

Lemma QA_fi : forall c q, QA c q -> q_first_incorrect q = NULL.
Proof. unfold QA. intros c q. destruct (st_deg && (0 <? c)); intro H; [apply (qa_fi _ _ H)|apply (qn_fi _ _ _ H)]. Qed.

(* the re-reads of the rollback only happen for 0 < d, hence in the normal regime *)
Lemma QI_read : forall predict c q f, 0 <= k -> 0 < d -> QI c q -> st_lo c <= f < c ->
  input predict q f = Ok (set_last_requested q f, (st_dl f, Confirmed)).
Proof.
  intros predict c q f Hk Hd0 H Hf. unfold QI, st_deg in H.
  assert ((d =? 0) = false) as E by lia. rewrite E, andb_false_r in H. cbn [andb] in H.
  apply (QN_input predict c (st_lo c) q f H). unfold st_hn, st_lo in *.
  destruct (Z.eqb_spec c 0); lia.
Qed.

(* the ring holds the frames max 0 (c - 1 - d) .. c + k: at most k + d + 2 of them *)
Lemma QI_add : forall c q, 0 <= k -> 0 <= d -> k + d + 2 <= QLEN -> 0 <= c -> QI c q ->
  exists q' r, add_input q c (u c) = Ok (q', r) /\ QA c q'.
Proof.
  intros c q Hk Hd Hcap Hc H. unfold QI in H. unfold QA.
  destruct (st_deg && (0 <? c)) eqn:E.
  - destruct (QD_add c q ltac:(lia) H ltac:(lia)) as (q' & E1 & HA). exists q', c. split; assumption.
  - apply (QN_add c (st_lo c) q Hk Hc H). unfold st_lo. lia.
Qed.

Lemma QA_input : forall predict c q, 0 <= k -> 0 <= d -> 0 <= c -> QA c q ->
  input predict q c = Ok (set_last_requested q c, (st_dl c, Confirmed)).
Proof.
  intros predict c q Hk Hd Hc H. unfold QA in H.
  destruct (st_deg && (0 <? c)) eqn:E.
  - rewrite (QDA_input predict c q H). unfold st_dl. unfold st_deg in E.
    assert (k = 0) as -> by lia. assert ((c <? 0) = false) as -> by lia. rewrite Z.sub_0_r. reflexivity.
  - apply (QN_input predict (c + 1) (st_lo c) q c H). unfold st_hn, st_lo.
    assert ((c + 1 =? 0) = false) as -> by lia. lia.
Qed.

Lemma QA_finish : forall c q, 0 <= k -> 0 <= d -> 0 <= c -> QA c q ->
  QI (c + 1) (if 0 <? c + 1 - d then discard_confirmed_frames (set_last_requested q c) (c - d)
              else set_last_requested q c).
Proof.
  intros c q Hk Hd Hc H. unfold QA in H. unfold QI.
  assert ((0 <? c + 1) = true) as -> by lia. rewrite andb_true_r.
  destruct st_deg eqn:Ed.
  - unfold st_deg in Ed. assert (Hk0 : k = 0) by lia. assert (Hd0 : d = 0) by lia.
    assert ((0 <? c + 1 - d) = true) as -> by lia. replace (c - d) with c by lia.
    cbn [andb] in H. destruct (Z.ltb_spec 0 c) as [Hp|Hz].
    + apply QDA_finish; assumption.
    + assert (c = 0) by lia. subst c. apply QN1_finish_deg; auto.
      apply QN_req. replace (st_lo 0) with 0 in H by (unfold st_lo; lia). exact H.
  - cbn [andb] in H.
    assert (Hdk : 0 < d + k) by (unfold st_deg in Ed; lia).
    destruct (Z.ltb_spec 0 (c + 1 - d)) as [Hp|Hz].
    + replace (st_lo (c + 1)) with (Z.max (st_lo c) (c - d)) by (unfold st_lo; lia).
      apply QN_discard; auto. apply QN_req. exact H.
    + replace (st_lo (c + 1)) with (st_lo c) by (unfold st_lo; lia).
      apply QN_req. exact H.
Qed.

End OneQueue.
