(* Proofs for property C12 (endpoint half) about the model Endpoint.v. *)
From Coq Require Import ZArith List Bool.
From GGRS Require Import Base Consts TimeSync Codec Endpoint EndpointSpec.
From GGRS Require Export EndpointEffects.
From GGRS Require Import LiaSetup.
Open Scope Z_scope.

Lemma pstate_eqb_refl : forall a, pstate_eqb a a = true.
Proof. destruct a; reflexivity. Qed.

Definition is_input (e : event) : bool := match e with EvInput _ _ _ => true | _ => false end.

(* the part of an endpoint the C12 theorems talk about *)
Definition hsk (s : ep) := (u_state s, u_sync_remaining s, u_sync_requests s, u_remote_magic s).
Definition c12 (s : ep) :=
  (hsk s, u_notify_start s, u_timeout s, u_last_recv_time s, u_notify_sent s, u_event_sent s, u_event_queue s).

Lemma input_events_all_input : forall f vs hs evs,
  input_events f vs hs = Ok evs -> forallb is_input evs = true.
Proof.
  induction vs as [|v vs IH]; intros hs evs H; cbn in H.
  - injection H as <-. reflexivity.
  - destruct hs as [|h hs]; [discriminate|].
    destruct (input_events f vs hs) eqn:E; try discriminate. injection H as <-. cbn. eauto.
Qed.

Lemma accept_inputs_shape : forall dbg start inputs i s b s',
  accept_inputs dbg start i inputs s = Ok (b, s') ->
  exists ri evs, s' = set_event_queue (u_event_queue s ++ evs) (set_recv_inputs ri s) /\
                 forallb is_input evs = true.
Proof.
  assert (Hid : forall s, s = set_event_queue (u_event_queue s ++ []) (set_recv_inputs (u_recv_inputs s) s))
    by (intro s; rewrite app_nil_r; destruct s; exact eq_refl).
  induction inputs as [|inp rest IH]; intros i s b s' H; cbn [accept_inputs] in H.
  - injection H as _ <-. eauto.
  - destruct (ts_i32_arith dbg (start + i)) as [fr| |]; try discriminate.
    destruct (fr <=? last_recv_frame s); [eauto|].
    destruct (to_player_inputs _ inp) as [vals|]; [|injection H as _ <-; eauto].
    destruct (input_events fr vals (u_handles s)) as [evs0| |] eqn:Ee; try discriminate.
    apply IH in H. destruct H as (ri & evs & -> & Hall). exists ri, (evs0 ++ evs). fs. split.
    + rewrite app_assoc. exact eq_refl.
    + rewrite forallb_app, Hall, (input_events_all_input _ _ _ _ Ee). reflexivity.
Qed.

Definition resumed_cond (s : ep) : bool :=
  u_notify_sent s && pstate_eqb (u_state s) PRunning && negb (u_event_sent s).
Definition resumed_pre (s : ep) : list event := if resumed_cond s then [EvNetworkResumed] else [].

(* on_input leaves the handshake and the timers alone; it may raise Disconnected (a disconnect request, under
   the disconnect_event_sent guard) and queues Input events *)
Lemma on_input_c12 : forall dbg now st dr sf af bytes s s',
  on_input dbg now st dr sf af bytes s = Ok s' ->
  exists d evs, forallb is_input evs = true /\
    (d = true -> u_event_sent s = false /\ u_state s <> PDisconnected) /\
    c12 s' = c12 (set_event_sent (u_event_sent s || d)
                    (set_event_queue (u_event_queue s ++ (if d then [EvDisconnected] else []) ++ evs) s)).
Proof.
  intros dbg now st dr sf af bytes s s' H.
  assert (Hid : forall x, c12 x = c12 s ->
            exists d evs, forallb is_input evs = true /\
              (d = true -> u_event_sent s = false /\ u_state s <> PDisconnected) /\
              c12 x = c12 (set_event_sent (u_event_sent s || d)
                             (set_event_queue (u_event_queue s ++ (if d then [EvDisconnected] else []) ++ evs) s))).
  { intros x ->. exists false, []. split; [reflexivity|]. split; [discriminate|].
    unfold c12. fs. rewrite orb_false_r, app_nil_r. reflexivity. }
  unfold on_input in H.
  destruct (negb dr && _); [injection H as <-; auto|]. destruct (sf <? 0); [injection H as <-; auto|].
  clear Hid. cbv zeta in H. rewrite pop_pending_output_nf in H. cbv zeta in H.
  (* after the acknowledgement and the status merge or the disconnect request *)
  match type of H with match ?X with _ => _ end = _ => destruct X as [s2| |] eqn:E2; try discriminate end.
  assert (H2 : exists d, (d = true -> u_event_sent s = false /\ u_state s <> PDisconnected) /\
             c12 s2 = c12 (set_event_sent (u_event_sent s || d)
                             (set_event_queue (u_event_queue s ++ (if d then [EvDisconnected] else [])) s))).
  { destruct dr.
    - fs in E2. injection E2 as <-. exists (negb (pstate_eqb (u_state s) PDisconnected) && negb (u_event_sent s)).
      destruct (pstate_eqb (u_state s) PDisconnected) eqn:Es, (u_event_sent s) eqn:Ee; cbn [negb andb orb]; unfold c12; fs;
        rewrite ?Ee, ?app_nil_r; (split; [|reflexivity]); try discriminate.
      intros _. split; [reflexivity|]. intro X. rewrite X in Es. discriminate.
    - destruct (merge_status _ _); try discriminate. injection E2 as <-. exists false. split; [discriminate|].
      unfold c12. fs. rewrite orb_false_r, app_nil_r. reflexivity. }
  clear E2. destruct H2 as (d & Hd & H2). exists d.
  (* the rest appends Input events *)
  assert (Hrest : forall evs, forallb is_input evs = true ->
            c12 s' = c12 (set_event_queue (u_event_queue s2 ++ evs) s2) ->
            exists evs, forallb is_input evs = true /\
              (d = true -> u_event_sent s = false /\ u_state s <> PDisconnected) /\
              c12 s' = c12 (set_event_sent (u_event_sent s || d)
                             (set_event_queue (u_event_queue s ++ (if d then [EvDisconnected] else []) ++ evs) s))).
  { intros evs Hall E. exists evs. split; [exact Hall|]. split; [exact Hd|].
    rewrite E. unfold c12, hsk in *. fs. fs in H2. rewrite app_assoc. congruence. }
  assert (Hnil : c12 s' = c12 s2 -> c12 s' = c12 (set_event_queue (u_event_queue s2 ++ []) s2))
    by (intros ->; rewrite app_nil_r; reflexivity).
  clear H2 Hd.
  destruct (alookup _ (u_recv_inputs s2)) as [ref|].
  - destruct (Codec.decode dbg ref bytes) as [inputs| |]; try discriminate.
    + destruct (accept_inputs dbg sf 0 inputs (set_last_input_recv now s2)) as [[b s4]| |] eqn:Ea;
        try discriminate.
      apply accept_inputs_shape in Ea. destruct Ea as (ri & evs & -> & Hall). apply (Hrest evs Hall).
      destruct b.
      * destruct (ts_i32_arith dbg _) as [w| |]; try discriminate.
        destruct (ts_i32_arith dbg _) as [lo| |]; try discriminate. injection H as <-. exact eq_refl.
      * injection H as <-. exact eq_refl.
    + injection H as <-. apply (Hrest [] eq_refl), Hnil. exact eq_refl.
  - destruct (sf <=? last_recv_frame s2); injection H as <-; apply (Hrest [] eq_refl), Hnil; exact eq_refl.
Qed.

Lemma match_of_filtered : forall s now nonce m, passes_filters s m = false -> match_of s (OMessage now nonce m) = [].
Proof. intros s now nonce m H. unfold match_of. destruct (m_body m); try reflexivity. rewrite H. reflexivity. Qed.

Lemma match_of_not_message : forall s o, (forall now nonce m, o <> OMessage now nonce m) -> match_of s o = [].
Proof. intros s o H. destruct o; try reflexivity. exfalso. eapply H; eauto. Qed.

(* only the handshake lets a packet through before the endpoint is Running *)
Lemma passes_running : forall s m,
  passes_filters s m = true -> is_handshake (m_body m) = false -> u_state s <> PDisconnected -> u_state s = PRunning.
Proof.
  intros s m H Hh Hd. unfold passes_filters in H. rewrite Hh in H.
  destruct (u_state s); cbn in H; try reflexivity; try congruence;
    rewrite ?andb_false_r in H; discriminate.
Qed.

(* an accepted packet that is not a matched reply: after the NetworkResumed bookkeeping, at most one
   Disconnected (a disconnect request, under the disconnect_event_sent guard) and Input events *)
Definition msg_other (s s' : ep) : Prop :=
  hsk s' = hsk s /\
  exists d evs, forallb is_input evs = true /\ (d = true -> u_event_sent s = false /\ u_state s = PRunning) /\
    u_event_sent s' = u_event_sent s || d /\
    u_event_queue s' = u_event_queue s ++ resumed_pre s ++ (if d then [EvDisconnected] else []) ++ evs.

(* a SyncReply for the outstanding nonce [n]: one round trip less to go *)
Definition msg_matched (nonce n mg : Z) (s s' : ep) : Prop :=
  u_state s = PSynchronizing /\ u_event_sent s' = u_event_sent s /\
  u_sync_remaining s' = u_sync_remaining s - 1 /\
  if 1 <? u_sync_remaining s
  then u_state s' = PSynchronizing /\ u_remote_magic s' = u_remote_magic s /\
       u_sync_requests s' = zinsert nonce (zremove n (u_sync_requests s)) /\
       u_event_queue s' = u_event_queue s ++
         [EvSynchronizing NUM_SYNC_PACKETS (NUM_SYNC_PACKETS - u_sync_remaining s + 1)]
  else u_state s' = PRunning /\ u_remote_magic s' = mg /\
       u_sync_requests s' = zremove n (u_sync_requests s) /\
       u_event_queue s' = u_event_queue s ++ [EvSynchronized].

Lemma handle_message_c12 : forall dbg now nonce m s s',
  handle_message dbg now nonce m s = Ok s' ->
  if passes_filters s m then
    u_notify_start s' = u_notify_start s /\ u_timeout s' = u_timeout s /\ u_last_recv_time s' = now /\
    u_notify_sent s' = (if resumed_cond s then false else u_notify_sent s) /\
    match match_of s (OMessage now nonce m) with
    | [] => msg_other s s'
    | (n, mg) :: _ => 1 <= u_sync_remaining s <= NUM_SYNC_PACKETS -> msg_matched nonce n mg s s'
    end
  else s' = s.
Proof.
  intros dbg now nonce m s s' H. unfold handle_message, handle_message_gen in H.
  cbn [fix_quiet_dead current_code] in H.
  destruct (passes_filters s m) eqn:Ep; cbn [negb] in H; [|injection H as <-; reflexivity].
  cbv zeta in H. fs in H. fold (resumed_cond s) in H.
  (* the receive time and the NetworkResumed bookkeeping *)
  set (t := if resumed_cond s then _ else _) in H.
  assert (Ht : c12 t = c12 (set_last_recv_time now (set_notify_sent (if resumed_cond s then false else u_notify_sent s)
                              (set_event_queue (u_event_queue s ++ resumed_pre s) s)))).
  { subst t. unfold resumed_pre. destruct (resumed_cond s); [reflexivity|]. unfold c12. fs. rewrite app_nil_r. reflexivity. }
  clearbody t. unfold c12, hsk in Ht. fs in Ht. injection Ht as T1 T2 T3 T4 T5 T6 T7 T8 T9 T10.
  assert (Hother : forall d evs, forallb is_input evs = true ->
            (d = true -> u_event_sent s = false /\ u_state s = PRunning) ->
            c12 s' = c12 (set_event_sent (u_event_sent t || d)
                            (set_event_queue (u_event_queue t ++ (if d then [EvDisconnected] else []) ++ evs) t)) ->
            u_notify_start s' = u_notify_start s /\ u_timeout s' = u_timeout s /\ u_last_recv_time s' = now /\
            u_notify_sent s' = (if resumed_cond s then false else u_notify_sent s) /\ msg_other s s').
  { intros d evs Hall Hd E. unfold msg_other, c12, hsk in *. fs in E. rewrite T1, T2, T3, T4, T5, T6, T7, T8, T9, T10 in E.
    injection E as -> -> -> -> -> -> -> -> -> ->. repeat (split; [reflexivity|]).
    exists d, evs. rewrite <- app_assoc. auto. }
  assert (Hframe : c12 s' = c12 t ->
            u_notify_start s' = u_notify_start s /\ u_timeout s' = u_timeout s /\ u_last_recv_time s' = now /\
            u_notify_sent s' = (if resumed_cond s then false else u_notify_sent s) /\ msg_other s s').
  { intros E. apply (Hother false []); [reflexivity|discriminate|]. rewrite E. unfold c12. fs.
    rewrite orb_false_r, app_nil_r. reflexivity. }
  unfold match_of.
  destruct (m_body m) as [n|n|st dr sf af bytes|f|adv ping|pong|c f|] eqn:Eb.
  - injection H as <-. apply Hframe. exact eq_refl.
  - apply on_sync_reply_inv in H. cbv zeta in H. rewrite T1, T2, T3 in H. rewrite Ep. cbn [andb].
    destruct (pstate_eqb (u_state s) PSynchronizing && zmem n (u_sync_requests s)) eqn:Em;
      [|subst s'; apply Hframe; reflexivity].
    apply andb_true_iff in Em. destruct Em as (Es & _). apply pstate_eqb_eq in Es. clear Hframe Hother.
    assert (Er : resumed_pre s = [])
      by (unfold resumed_pre, resumed_cond; rewrite Es; cbn [pstate_eqb]; rewrite andb_false_r; reflexivity).
    rewrite Er, app_nil_r in T10.
    assert (Ht : u_notify_start s' = u_notify_start t /\ u_timeout s' = u_timeout t /\
                 u_last_recv_time s' = u_last_recv_time t /\ u_notify_sent s' = u_notify_sent t)
      by (destruct (0 <? _) in H; subst s'; repeat split).
    destruct Ht as (A1 & A2 & A3 & A4). do 4 (split; [congruence|]). intro Hr.
    rewrite (Z.mod_small (u_sync_remaining s - 1)) in H by (unfold NUM_SYNC_PACKETS in Hr; lia).
    rewrite (Z.mod_small (NUM_SYNC_PACKETS - _)) in H by (unfold NUM_SYNC_PACKETS in *; lia).
    replace (NUM_SYNC_PACKETS - (u_sync_remaining s - 1)) with (NUM_SYNC_PACKETS - u_sync_remaining s + 1) in H by lia.
    replace (0 <? u_sync_remaining s - 1) with (1 <? u_sync_remaining s) in H by lia.
    unfold msg_matched. destruct (1 <? u_sync_remaining s); subst s'; fs; rewrite T10; repeat split; congruence.
  - apply on_input_c12 in H. destruct H as (d & evs & Hall & Hd & E). apply (Hother d evs Hall); [|exact E].
    intro X. destruct (Hd X) as (X1 & X2). split; [congruence|].
    apply (passes_running s m Ep); [rewrite Eb; reflexivity|congruence].
  - injection H as <-. apply Hframe. rewrite pop_pending_output_nf. exact eq_refl.
  - injection H as <-. apply Hframe. exact eq_refl.
  - injection H as <-. apply Hframe. exact eq_refl.
  - apply on_checksum_report_shape in H. destruct H as (pcs & ->). apply Hframe. exact eq_refl.
  - injection H as <-. apply Hframe. reflexivity.
Qed.

Lemma poll_effect : forall now nonce cs s out s',
  poll now nonce cs s = Ok (out, s') ->
  u_event_queue s' = [] /\ u_notify_start s' = u_notify_start s /\ u_timeout s' = u_timeout s /\
  u_last_recv_time s' = u_last_recv_time s /\ u_remote_magic s' = u_remote_magic s /\
  u_sync_remaining s' = u_sync_remaining s /\
  match u_state s with
  | PRunning =>
    u_state s' = PRunning /\ u_sync_requests s' = u_sync_requests s /\
    u_notify_sent s' = u_notify_sent s || interrupt_now now s /\
    u_event_sent s' = u_event_sent s || timeout_now now s /\
    out = u_event_queue s ++ poll_pushed now s
  | PSynchronizing =>
    u_state s' = PSynchronizing /\ u_notify_sent s' = u_notify_sent s /\ u_event_sent s' = u_event_sent s /\
    out = u_event_queue s /\
    u_sync_requests s' = (if u_last_sync_request_time s + SYNC_RETRY_INTERVAL <? now
                          then zinsert nonce (u_sync_requests s) else u_sync_requests s)
  | PDisconnected =>
    u_state s' = (if u_shutdown_timeout s <? now then PShutdown else PDisconnected) /\
    u_notify_sent s' = u_notify_sent s /\ u_event_sent s' = u_event_sent s /\
    out = u_event_queue s /\ u_sync_requests s' = u_sync_requests s
  | st =>
    u_state s' = st /\ u_notify_sent s' = u_notify_sent s /\ u_event_sent s' = u_event_sent s /\
    out = u_event_queue s /\ u_sync_requests s' = u_sync_requests s
  end.
Proof.
  intros now nonce cs s out s' H. unfold poll, poll_gen in H. cbv zeta in H.
  change (poll_running_gen current_code) with poll_running in H.
  destruct (u_state s) eqn:Es.
  - injection H as <- <-. fs. rewrite Es. repeat split.
  - destruct (_ <? now); injection H as <- <-; fs; rewrite Es; repeat split.
  - destruct (poll_running now cs s) as [t| |] eqn:Et; try discriminate.
    apply poll_running_inv in Et. destruct Et as (bs & i & r & _ & ->).
    injection H as <- <-. unfold sent. fs. rewrite Es. repeat split.
  - destruct (_ <? now); injection H as <- <-; fs; rewrite ?Es; repeat split.
  - injection H as <- <-. fs. rewrite Es. repeat split.
Qed.

Lemma send_input_c12 : forall now inputs cs s s', send_input now inputs cs s = Ok s' ->
  exists d, (d = true -> u_event_sent s = false /\ u_state s = PRunning) /\
    c12 s' = c12 (set_event_sent (u_event_sent s || d)
                    (set_event_queue (u_event_queue s ++ (if d then [EvDisconnected] else [])) s)).
Proof.
  intros now inputs cs s s' H. apply send_input_inv in H.
  destruct (pstate_eqb (u_state s) PRunning) eqn:Er.
  - apply pstate_eqb_eq in Er. destruct H as (data & ts & f & _ & _ & ->).
    set (over := (_ <? _)%N). clearbody over. exists (over && negb (u_event_sent s)). split.
    + intro X. apply andb_true_iff in X. destruct (u_event_sent s); [destruct X; discriminate|auto].
    + unfold c12. fs. destruct over, (u_event_sent s); reflexivity.
  - subst s'. exists false. split; [discriminate|]. unfold c12. fs. rewrite orb_false_r, app_nil_r. reflexivity.
Qed.

Lemma recog_app : forall a b r,
  recog r (a ++ b) = match recog r a with Some r' => recog r' b | None => None end.
Proof.
  induction a as [|e a IH]; intros b r; cbn [app recog]; [reflexivity|].
  destruct (rstep r e); [apply IH|reflexivity].
Qed.

Lemma recog_inputs : forall evs r, forallb is_input evs = true -> recog r evs = Some r.
Proof.
  induction evs as [|e evs IH]; intros r H; cbn in *; [reflexivity|].
  apply andb_true_iff in H. destruct H as [He H]. destruct e; try discriminate. cbn. auto.
Qed.

Lemma recog_prefix : forall a b r, recog r (a ++ b) <> None -> recog r a <> None.
Proof. intros a b r H. rewrite recog_app in H. destruct (recog r a); congruence. Qed.

Lemma cd_app : forall a b, count_disconnected (a ++ b) = (count_disconnected a + count_disconnected b)%nat.
Proof. intros. unfold count_disconnected. rewrite filter_app, app_length. reflexivity. Qed.

Lemma cd_inputs : forall evs, forallb is_input evs = true -> count_disconnected evs = O.
Proof.
  induction evs as [|e evs IH]; intro H; cbn in *; [reflexivity|].
  apply andb_true_iff in H. destruct H as [He H]. destruct e; try discriminate. cbn. auto.
Qed.

Lemma inputs_no_sync : forall evs, forallb is_input evs = true -> ~ In EvSynchronized evs.
Proof.
  induction evs as [|e evs IH]; intros H; [intros []|].
  cbn in H; apply andb_true_iff in H; destruct H as [He H]. intros [E|E].
  - subst; discriminate.
  - exact (IH H E).
Qed.

(* dropping the Disconnected events of an accepted word leaves an accepted word: nothing but Input events
   follows a Disconnected *)
Lemma recog_without_disconnected : forall evs r,
  recog r evs <> None -> recog r (without_disconnected evs) <> None.
Proof.
  induction evs as [|e evs IH]; intros r H; cbn [without_disconnected filter recog] in *; [exact H|].
  destruct (rstep r e) as [r'|] eqn:Er; [|congruence].
  destruct e; cbn [is_disconnected negb recog]; try (rewrite Er; apply IH; exact H).
  (* Disconnected: the rest is accepted from RDead, so it is Input events only *)
  destruct r; try discriminate; injection Er as <-; clear IH;
    (induction evs as [|e evs IH]; [discriminate|]); cbn [without_disconnected filter recog] in *;
    destruct e; try (exfalso; apply H; reflexivity); cbn [is_disconnected negb recog rstep] in *; auto.
Qed.

Definition no_interrupted (l : list event) : Prop := forall t, ~ In (EvNetworkInterrupted t) l.

Lemma no_interrupted_app : forall a b, no_interrupted a -> no_interrupted b -> no_interrupted (a ++ b).
Proof. intros a b Ha Hb t H. apply in_app_iff in H. destruct H; [eapply Ha|eapply Hb]; eauto. Qed.

Lemma no_interrupted_inputs : forall evs, forallb is_input evs = true -> no_interrupted evs.
Proof.
  induction evs as [|e evs IH]; intros H t; [intros []|].
  cbn in H. apply andb_true_iff in H. destruct H as [He H]. intros [X|X].
  - subst. discriminate.
  - exact (IH H t X).
Qed.

Lemma no_interrupted_resumed_pre : forall s, no_interrupted (resumed_pre s).
Proof.
  intros s t H. unfold resumed_pre in H.
  destruct (resumed_cond s); cbn in H; intuition discriminate.
Qed.

(* what may precede the rest of a step's events: the event of a NetworkInterrupted / NetworkResumed flip *)
Inductive pre_kind (s s' : ep) : list event -> Prop :=
| pk_none : u_notify_sent s' = u_notify_sent s -> pre_kind s s' []
| pk_resumed : u_notify_sent s = true -> u_state s = PRunning -> u_notify_sent s' = false ->
               pre_kind s s' [EvNetworkResumed]
| pk_interrupted : forall t, u_notify_sent s = false -> u_state s = PRunning -> u_notify_sent s' = true ->
               pre_kind s s' [EvNetworkInterrupted t].

Lemma pre_kind_resumed : forall s s',
  u_notify_sent s' = (if resumed_cond s then false else u_notify_sent s) -> pre_kind s s' (resumed_pre s).
Proof.
  intros s s' H. unfold resumed_pre. destruct (resumed_cond s) eqn:E; [|apply pk_none; exact H].
  unfold resumed_cond in E. apply andb_true_iff in E. destruct E as (E & _).
  apply andb_true_iff in E. destruct E as (E1 & E2). apply pstate_eqb_eq in E2. apply pk_resumed; assumption.
Qed.

Lemma resumed_pre_dead : forall s, u_event_sent s = true -> resumed_pre s = [].
Proof.
  intros s H. unfold resumed_pre, resumed_cond. rewrite H. cbn [negb]. rewrite andb_false_r. reflexivity.
Qed.

Lemma interrupt_now_iff : forall now s, interrupt_now now s = true <->
  u_notify_sent s = false /\ u_event_sent s = false /\ u_last_recv_time s + u_notify_start s < now.
Proof. intros now s. unfold interrupt_now. destruct (u_notify_sent s), (u_event_sent s); cbn; lia. Qed.

Lemma timeout_now_iff : forall now s, timeout_now now s = true <->
  u_event_sent s = false /\ u_last_recv_time s + u_timeout s < now.
Proof. intros now s. unfold timeout_now. destruct (u_event_sent s); cbn; lia. Qed.

(* how a step extends the event history (what poll has handed out, then the queue) by [w], and what it does
   to the handshake *)
Inductive step_kind (o : op) (s s' : ep) (w : list event) : Prop :=
| sk_quiet : forall pre (d : bool) evs,
    w = pre ++ (if d then [EvDisconnected] else []) ++ evs ->
    u_state s' = u_state s -> u_sync_remaining s' = u_sync_remaining s -> u_remote_magic s' = u_remote_magic s ->
    match_of s o = [] -> pre_kind s s' pre -> (u_event_sent s = true -> pre = []) ->
    (d = true -> u_event_sent s = false /\ u_state s = PRunning) -> u_event_sent s' = u_event_sent s || d ->
    forallb is_input evs = true -> step_kind o s s' w
| sk_dead : w = [] -> u_state s' = PDisconnected \/ u_state s' = PShutdown ->
    u_remote_magic s' = u_remote_magic s -> u_event_sent s' = u_event_sent s -> match_of s o = [] ->
    step_kind o s s' w
| sk_synchronize : w = [] -> u_state s = PInitializing -> u_state s' = PSynchronizing ->
    u_sync_remaining s' = NUM_SYNC_PACKETS -> u_remote_magic s' = u_remote_magic s ->
    u_notify_sent s' = u_notify_sent s -> u_event_sent s' = u_event_sent s -> match_of s o = [] ->
    step_kind o s s' w
| sk_matched : forall n mg, match_of s o = [(n, mg)] -> u_state s = PSynchronizing ->
    u_sync_remaining s' = u_sync_remaining s - 1 ->
    u_notify_sent s' = u_notify_sent s -> u_event_sent s' = u_event_sent s ->
    (if 1 <? u_sync_remaining s
     then u_state s' = PSynchronizing /\ u_remote_magic s' = u_remote_magic s /\
          w = [EvSynchronizing NUM_SYNC_PACKETS (NUM_SYNC_PACKETS - u_sync_remaining s + 1)]
     else u_state s' = PRunning /\ u_remote_magic s' = mg /\ w = [EvSynchronized]) ->
    step_kind o s s' w.

Lemma match_of_cases : forall s o,
  match_of s o = [] \/
  exists n mg, match_of s o = [(n, mg)] /\ u_state s = PSynchronizing /\ zmem n (u_sync_requests s) = true.
Proof.
  intros s o. destruct o; auto. cbn [match_of]. destruct (m_body m); auto.
  destruct (passes_filters s m && _ && zmem _ _) eqn:E; [|auto].
  apply andb_true_iff in E. destruct E as (E & Hz). apply andb_true_iff in E. destruct E as (_ & Es).
  apply pstate_eqb_eq in Es. right. eexists _, _. auto.
Qed.

Lemma step_c12 : forall dbg o s s' out,
  (u_state s = PSynchronizing -> 1 <= u_sync_remaining s <= NUM_SYNC_PACKETS) ->
  step dbg o s = Ok (s', out) ->
  u_notify_start s' = u_notify_start s /\ u_timeout s' = u_timeout s /\
  u_last_recv_time s' = accept_time s o (u_last_recv_time s) /\
  u_sync_requests s' =
    fold_right zinsert (fold_right zremove (u_sync_requests s) (map fst (match_of s o))) (draws s o) /\
  (no_interrupted (u_event_queue s) -> no_interrupted (u_event_queue s')) /\
  exists w, out ++ u_event_queue s' = u_event_queue s ++ w /\ step_kind o s s' w.
Proof.
  intros dbg o s s' out Hr H. apply step_inv in H.
  (* a step that leaves the C12 part alone *)
  assert (Hframe : forall o, c12 s' = c12 s -> match_of s o = [] -> draws s o = [] -> out = [] ->
            accept_time s o (u_last_recv_time s) = u_last_recv_time s ->
            u_notify_start s' = u_notify_start s /\ u_timeout s' = u_timeout s /\
            u_last_recv_time s' = accept_time s o (u_last_recv_time s) /\
            u_sync_requests s' =
              fold_right zinsert (fold_right zremove (u_sync_requests s) (map fst (match_of s o))) (draws s o) /\
            (no_interrupted (u_event_queue s) -> no_interrupted (u_event_queue s')) /\
            exists w, out ++ u_event_queue s' = u_event_queue s ++ w /\ step_kind o s s' w).
  { intros o' E Hm Hd -> Ha. rewrite Hm, Hd, Ha. unfold c12, hsk in E. injection E as E1 E2 E3 E4 E5 E6 E7 E8 E9 E10.
    repeat (split; [assumption|]). rewrite E10. split; [auto|]. exists []. split; [symmetry; apply app_nil_r|].
    apply (sk_quiet _ _ _ _ [] false []); auto; try discriminate; [apply pk_none; exact E8|].
    rewrite E9. symmetry. apply orb_false_r. }
  destruct o as [now nonce|now nonce m|now nonce cs|now inputs cs|now|now fr ck|lf|].
  - destruct H as (H & ->). apply synchronize_inv in H. destruct H as (Es & ->). clear Hframe.
    cbn [accept_time draws match_of]. rewrite Es. cbn [pstate_eqb]. repeat (split; [exact eq_refl|]). split; [auto|]. exists [].
    split; [exact (eq_sym (app_nil_r _))|]. apply sk_synchronize; auto.
  - destruct H as (H & ->). apply handle_message_c12 in H.
    destruct (passes_filters s m) eqn:Ep.
    2:{ subst s'. apply (Hframe (OMessage now nonce m)); cbn [accept_time draws]; auto.
        - apply match_of_filtered, Ep.
        - rewrite (match_of_filtered _ _ _ _ Ep). reflexivity.
        - rewrite Ep. reflexivity. }
    clear Hframe. destruct H as (NS & TO & L & NT & K). cbn [accept_time draws]. rewrite Ep.
    repeat (split; [assumption|]).
    destruct (match_of_cases s (OMessage now nonce m)) as [Hm|(n & mg & Hm & Es & Hz)]; rewrite Hm in *.
    + destruct K as (Hh & d & evs & Hall & Hd & Ee & Eq). unfold hsk in Hh. injection Hh as E1 E2 E3 E4.
      split; [exact E3|]. split.
      * intro HN. rewrite Eq. apply no_interrupted_app; [exact HN|].
        apply no_interrupted_app; [apply no_interrupted_resumed_pre|].
        apply no_interrupted_app; [|apply no_interrupted_inputs, Hall].
        destruct d; intros t X; [destruct X as [X|[]]; discriminate|destruct X].
      * eexists. split; [exact Eq|].
        apply (sk_quiet _ _ _ _ (resumed_pre s) d evs); auto using pre_kind_resumed, resumed_pre_dead.
    + destruct (K (Hr Es)) as (_ & Ee & Er & Hc).
      assert (En : u_notify_sent s' = u_notify_sent s).
      { rewrite NT. unfold resumed_cond. rewrite Es. cbn [pstate_eqb]. rewrite andb_false_r. reflexivity. }
      cbn [map fst fold_right].
      destruct (1 <? u_sync_remaining s) eqn:E1; destruct Hc as (S' & Rm & Rq & Q); (split; [exact Rq|]);
        (split; [intro HN; rewrite Q; apply no_interrupted_app; [exact HN|intros t [X|[]]; discriminate]|]);
        (eexists; split; [exact Q|]); apply (sk_matched _ _ _ _ n mg); auto; rewrite E1; auto.
  - apply poll_effect in H. destruct H as (Q & NS & TO & L & RM & SR & Hst). clear Hframe.
    cbn [accept_time draws match_of]. rewrite Q, app_nil_r. repeat (split; [assumption|]).
    assert (HN : no_interrupted (u_event_queue s) -> no_interrupted []) by (intros _ t []).
    destruct (u_state s) eqn:Es; cbn [pstate_eqb andb]; destruct Hst as (A & B & C & D & F).
    + split; [exact F|]. split; [exact HN|]. exists []. rewrite app_nil_r. split; [exact D|].
      apply (sk_quiet _ _ _ _ [] false []); auto; try congruence; try discriminate; [apply pk_none; exact B|].
      rewrite C. symmetry. apply orb_false_r.
    + split; [rewrite F; destruct (_ <? now); reflexivity|]. split; [exact HN|]. exists []. rewrite app_nil_r.
      split; [exact D|].
      apply (sk_quiet _ _ _ _ [] false []); auto; try congruence; try discriminate; [apply pk_none; exact B|].
      rewrite C. symmetry. apply orb_false_r.
    + split; [exact B|]. split; [exact HN|]. exists (poll_pushed now s). split; [exact F|].
      apply (sk_quiet _ _ _ _
               (if interrupt_now now s then [EvNetworkInterrupted (Z.max 0 (u_timeout s - u_notify_start s))] else [])
               (timeout_now now s) []); auto; try congruence.
      * unfold poll_pushed. rewrite app_nil_r. reflexivity.
      * destruct (interrupt_now now s) eqn:T.
        -- apply interrupt_now_iff in T. destruct T as (T1 & T2 & T3).
           apply pk_interrupted; try assumption. rewrite C. apply orb_true_r.
        -- apply pk_none. rewrite C. apply orb_false_r.
      * intro He. destruct (interrupt_now now s) eqn:T; [|reflexivity].
        apply interrupt_now_iff in T. destruct T as (_ & T & _). congruence.
      * intro T. apply timeout_now_iff in T. destruct T as (T & _). auto.
    + split; [exact F|]. split; [exact HN|]. exists []. rewrite app_nil_r. split; [exact D|].
      apply sk_dead; auto. rewrite A. destruct (_ <? now); auto.
    + split; [exact F|]. split; [exact HN|]. exists []. rewrite app_nil_r. split; [exact D|].
      apply sk_dead; auto.
  - destruct H as (H & ->). apply send_input_c12 in H. destruct H as (d & Hd & E). clear Hframe.
    unfold c12, hsk in E. fs in E. injection E as E1 E2 E3 E4 E5 E6 E7 E8 E9 E10.
    cbn [accept_time draws match_of]. repeat (split; [assumption|]). split.
    + intro HN. rewrite E10. apply no_interrupted_app; [exact HN|].
      destruct d; intros t X; [destruct X as [X|[]]; discriminate|destruct X].
    + eexists. split; [exact E10|].
      apply (sk_quiet _ _ _ _ [] d []); auto; [rewrite app_nil_r; reflexivity|apply pk_none; exact E8].
  - destruct H as (-> & ->). cbn [accept_time draws match_of]. unfold disconnect.
    destruct (pstate_eqb (u_state s) PShutdown) eqn:Es.
    + apply pstate_eqb_eq in Es. repeat (split; [auto|]). exists []. split; [exact (eq_sym (app_nil_r _))|].
      apply sk_dead; auto.
    + repeat (split; [exact eq_refl|]). split; [auto|]. exists []. split; [exact (eq_sym (app_nil_r _))|].
      apply sk_dead; auto.
  - destruct H as (-> & ->). apply (Hframe (OChecksum now fr ck)); reflexivity.
  - destruct H as (H & ->). apply update_local_frame_advantage_shape in H. destruct H as (a & ->).
    apply (Hframe (OAdvantage lf)); reflexivity.
  - destruct H as (-> & ->). apply (Hframe ODrain); reflexivity.
Qed.

Lemma num_facts : 1 <= NUM_SYNC_PACKETS /\ NUM_SYNC_PACKETS < 4294967296.
Proof. split; [discriminate|reflexivity]. Qed.

Definition hs_facts (s : ep) (w : list event) (ms : list (Z * Z)) : Prop :=
  let m := Z.of_nat (length ms) in
  (In EvSynchronized w <-> m = NUM_SYNC_PACKETS) /\ m <= NUM_SYNC_PACKETS /\
  (m < NUM_SYNC_PACKETS -> u_remote_magic s = 0) /\
  (m = NUM_SYNC_PACKETS -> u_remote_magic s = nth (Z.to_nat (NUM_SYNC_PACKETS - 1)) (map snd ms) 0).

(* where the recogniser stands after the history [w], and the number [m] of matched replies, per state *)
Definition st_facts (s : ep) (w : list event) (ms : list (Z * Z)) : Prop :=
  let m := Z.of_nat (length ms) in
  match u_state s with
  | PInitializing =>
    recog (RSync 0) w = Some (RSync 0) /\ m = 0 /\ u_notify_sent s = false /\ u_event_sent s = false
  | PSynchronizing =>
    recog (RSync 0) w = Some (RSync m) /\ m = NUM_SYNC_PACKETS - u_sync_remaining s /\
    1 <= u_sync_remaining s <= NUM_SYNC_PACKETS /\ u_notify_sent s = false /\ u_event_sent s = false
  | PRunning =>
    recog (RSync 0) w = Some (if u_event_sent s then RDead else if u_notify_sent s then RInterrupted else RRun) /\
    m = NUM_SYNC_PACKETS
  | _ => recog (RSync 0) w <> None
  end.

(* [W]: the events handed out so far; [ms]: the replies matched so far *)
Definition Inv1 (s : ep) (W : list event) (ms : list (Z * Z)) : Prop :=
  let w := W ++ u_event_queue s in
  count_disconnected w = (if u_event_sent s then 1 else 0)%nat /\ hs_facts s w ms /\ st_facts s w ms.

Lemma st_facts_accepts : forall s w ms, st_facts s w ms -> recog (RSync 0) w <> None.
Proof.
  intros s w ms H. unfold st_facts in H.
  destruct (u_state s); try exact H; destruct H as [H _]; rewrite H; discriminate.
Qed.

Lemma st_facts_range : forall s w ms, st_facts s w ms ->
  u_state s = PSynchronizing -> 1 <= u_sync_remaining s <= NUM_SYNC_PACKETS.
Proof. intros s w ms H Es. unfold st_facts in H. rewrite Es in H. apply H. Qed.

Lemma inv1_step : forall dbg o s s' out W ms,
  Inv1 s W ms -> step dbg o s = Ok (s', out) -> Inv1 s' (W ++ out) (ms ++ match_of s o).
Proof.
  intros dbg o s s' out W ms (Hc & (HA & HB & HC & HD) & Hst) H.
  destruct (step_c12 _ _ _ _ _ (st_facts_range _ _ _ Hst) H) as (_ & _ & _ & _ & _ & x & Hw & K).
  unfold Inv1. cbv zeta. rewrite <- app_assoc, Hw, app_assoc. set (w := W ++ u_event_queue s) in *.
  clear H Hw.
  destruct K as [pre d evs Ex Es Er Em Ew Hp Hpre Hd Ee Hall|Ex Hs Em Ee Ew|Ex S0 S1 Er Em En Ee Ew|n mg Ew Ss Er En Ee Hcase];
    rewrite Ew; try subst x.
  - (* the handshake does not move *)
    rewrite app_nil_r.
    assert (Hns : ~ In EvSynchronized (pre ++ (if d then [EvDisconnected] else []) ++ evs)).
    { rewrite !in_app_iff. intros [X|[X|X]].
      - destruct Hp; cbn in X; intuition discriminate.
      - destruct d; cbn in X; intuition discriminate.
      - exact (inputs_no_sync _ Hall X). }
    split; [|split].
    + rewrite !cd_app, (cd_inputs evs Hall), Hc, Ee.
      assert (count_disconnected pre = O) as -> by (destruct Hp; reflexivity).
      destruct d; [destruct (Hd eq_refl) as (-> & _); reflexivity|rewrite orb_false_r; cbn; lia].
    + unfold hs_facts. cbv zeta. rewrite Em, in_app_iff. repeat split; tauto.
    + unfold st_facts in *. cbv zeta in *. rewrite Es, Er, !recog_app.
      destruct (u_state s) eqn:Est.
      * destruct Hst as (R & M & N & E). destruct Hp as [Hn| |]; try congruence.
        destruct d; [destruct (Hd eq_refl); congruence|].
        rewrite R, orb_false_r in *. cbn [app recog]. rewrite (recog_inputs _ _ Hall). repeat split; congruence.
      * destruct Hst as (R & M & S & N & E). destruct Hp as [Hn| |]; try congruence.
        destruct d; [destruct (Hd eq_refl); congruence|].
        rewrite R, orb_false_r in *. cbn [app recog]. rewrite (recog_inputs _ _ Hall). repeat split; try congruence; lia.
      * destruct Hst as (R & M). rewrite R. split; [|exact M]. destruct (u_event_sent s) eqn:E0; cbv iota.
        -- rewrite (Hpre eq_refl). destruct d; [destruct (Hd eq_refl); discriminate|].
           rewrite Ee. cbn [app recog orb]. apply recog_inputs, Hall.
        -- assert (Hr : recog (if u_notify_sent s then RInterrupted else RRun) pre
                        = Some (if u_notify_sent s' then RInterrupted else RRun)).
           { destruct Hp as [Hn|Hn _ Hn'|t Hn _ Hn']; cbn [recog]; rewrite ?Hn, ?Hn'; reflexivity. }
           rewrite recog_app, Hr, Ee. destruct d; cbn [app recog orb]; [|apply recog_inputs, Hall].
           assert (rstep (if u_notify_sent s' then RInterrupted else RRun) EvDisconnected = Some RDead) as ->
             by (destruct (u_notify_sent s'); reflexivity).
           apply recog_inputs, Hall.
      * destruct Hp as [Hn| |]; try congruence. destruct d; [destruct (Hd eq_refl); congruence|].
        destruct (recog (RSync 0) w); [|congruence]. cbn [app recog]. rewrite (recog_inputs _ _ Hall). discriminate.
      * destruct Hp as [Hn| |]; try congruence. destruct d; [destruct (Hd eq_refl); congruence|].
        destruct (recog (RSync 0) w); [|congruence]. cbn [app recog]. rewrite (recog_inputs _ _ Hall). discriminate.
  - (* Disconnected or Shutdown *)
    rewrite !app_nil_r, Ee. split; [exact Hc|]. split.
    + unfold hs_facts. cbv zeta. rewrite Em. repeat split; tauto.
    + apply st_facts_accepts in Hst. unfold st_facts. destruct Hs as [-> | ->]; exact Hst.
  - (* synchronize *)
    rewrite !app_nil_r, Ee. split; [exact Hc|]. split.
    + unfold hs_facts. cbv zeta. rewrite Em. repeat split; tauto.
    + unfold st_facts in *. cbv zeta in *. rewrite S0 in Hst. rewrite S1, Er, En, Ee.
      destruct Hst as (R & M & N & E). rewrite M. pose proof num_facts. repeat split; try assumption; lia.
  - (* a matched reply *)
    unfold st_facts in Hst. cbv zeta in Hst. rewrite Ss in Hst. destruct Hst as (R & M & (Slo & Shi) & N & E).
    assert (Elen : Z.of_nat (length (ms ++ [(n, mg)])) = Z.of_nat (length ms) + 1)
      by (rewrite app_length; cbn [length]; lia).
    assert (Hnos : ~ In EvSynchronized w) by (rewrite HA; lia).
    rewrite Ee, E. unfold hs_facts, st_facts. cbv zeta. rewrite Elen, Er, En, Ee, N, E.
    rewrite E in Hc. clear Elen Er En Ee N E HA HB HD. unfold NUM_SYNC_PACKETS in *.
    destruct (1 <? u_sync_remaining s) eqn:E1; destruct Hcase as (-> & -> & ->); rewrite cd_app, Hc, in_app_iff, recog_app, R;
      cbn [recog rstep In]; (split; [reflexivity|]).
    + split.
      * split; [|split; [lia|split; [intros _; apply HC; lia|intro; lia]]].
        split; [intros [X|[X|[]]]; [tauto|discriminate]|lia].
      * unfold NUM_SYNC_PACKETS.
        assert (((5 =? 5) && (5 - u_sync_remaining s + 1 =? Z.of_nat (length ms) + 1)
                 && (5 - u_sync_remaining s + 1 <? 5)) = true) as -> by lia.
        repeat split; try lia. do 2 f_equal. lia.
    + split.
      * split; [split; [lia|intros _; right; left; reflexivity]|]. split; [lia|]. split; [lia|].
        intros _. rewrite map_app. cbn [map snd].
        replace (Z.to_nat (5 - 1)) with (length (map snd ms)) by (rewrite map_length; lia).
        rewrite app_nth2, Nat.sub_diag by lia. reflexivity.
      * unfold NUM_SYNC_PACKETS. assert ((Z.of_nat (length ms) =? 5 - 1) = true) as -> by lia.
        split; [reflexivity|lia].
Qed.

Lemma inv1_run : forall dbg ops s W ms s' evs,
  Inv1 s W ms -> run dbg s ops = Ok (s', evs) -> Inv1 s' (W ++ evs) (ms ++ matches dbg s ops).
Proof.
  induction ops as [|o r IH]; intros s W ms s' evs HI H.
  - injection H as <- <-. cbn [matches]. rewrite !app_nil_r. exact HI.
  - apply run_cons in H. destruct H as (s1 & e1 & e2 & H1 & H2 & ->). cbn [matches]. rewrite H1, !app_assoc.
    eapply IH; [|exact H2]. eapply inv1_step; eauto.
Qed.

Definition InvT (ns to : Z) (s : ep) (la : Z) : Prop :=
  (u_notify_start s = ns /\ u_timeout s = to /\ u_last_recv_time s = la) /\ no_interrupted (u_event_queue s).

Lemma invT_step : forall ns to dbg o s s' out la W ms,
  Inv1 s W ms -> InvT ns to s la -> step dbg o s = Ok (s', out) -> InvT ns to s' (accept_time s o la).
Proof.
  intros ns to dbg o s s' out la W ms (_ & _ & Hst) ((K1 & K2 & K3) & HN) H.
  destruct (step_c12 _ _ _ _ _ (st_facts_range _ _ _ Hst) H) as (NS & TO & L & _ & Q & _).
  split; [|auto]. subst la. repeat split; congruence.
Qed.

Lemma poll_pushes : forall dbg now nonce cs s s' out,
  step dbg (OPoll now nonce cs) s = Ok (s', out) ->
  exists pushed, out = u_event_queue s ++ pushed /\
    (forall t, In (EvNetworkInterrupted t) pushed ->
       u_state s = PRunning /\ u_notify_sent s = false /\ u_event_sent s = false /\
       u_last_recv_time s + u_notify_start s < now /\ t = Z.max 0 (u_timeout s - u_notify_start s)) /\
    (In EvDisconnected pushed ->
       u_state s = PRunning /\ u_event_sent s = false /\ u_last_recv_time s + u_timeout s < now) /\
    (u_state s = PRunning -> u_notify_sent s = false -> u_event_sent s = false ->
     u_last_recv_time s + u_notify_start s < now ->
       In (EvNetworkInterrupted (Z.max 0 (u_timeout s - u_notify_start s))) pushed /\ u_notify_sent s' = true) /\
    (u_state s = PRunning -> u_event_sent s = false -> u_last_recv_time s + u_timeout s < now ->
       In EvDisconnected pushed /\ u_event_sent s' = true).
Proof.
  intros dbg now nonce cs s s' out H. apply step_inv, poll_effect in H.
  destruct H as (_ & _ & _ & _ & _ & _ & Hst).
  destruct (u_state s) eqn:Es; destruct Hst as (A & B & C & D & F);
    try (exists []; rewrite app_nil_r; split; [exact D|]; split; [intros ? []|]; split; [intros []|];
         split; discriminate).
  exists (poll_pushed now s). split; [exact F|]. unfold poll_pushed. rewrite C, D.
  pose proof (interrupt_now_iff now s) as HI. pose proof (timeout_now_iff now s) as HT.
  split; [|split; [|split]].
  - intros t X. apply in_app_iff in X. destruct X as [X|X].
    + destruct (interrupt_now now s); [|destruct X]. destruct X as [X|[]]. injection X as <-. tauto.
    + destruct (timeout_now now s); [destruct X as [X|[]]; discriminate|destruct X].
  - intro X. apply in_app_iff in X. destruct X as [X|X].
    + destruct (interrupt_now now s); [destruct X as [X|[]]; discriminate|destruct X].
    + destruct (timeout_now now s); [tauto|destruct X].
  - intros _ X1 X2 X3. assert (T : interrupt_now now s = true) by tauto.
    rewrite T. split; [left; reflexivity|apply orb_true_r].
  - intros _ X1 X2. assert (T : timeout_now now s = true) by tauto.
    rewrite T. split; [apply in_app_iff; right; left; reflexivity|apply orb_true_r].
Qed.

Lemma non_poll_silent : forall dbg o s s' out,
  step dbg o s = Ok (s', out) -> (forall now nonce cs, o <> OPoll now nonce cs) -> out = [].
Proof.
  intros dbg o s s' out H Hn. apply step_inv in H. destruct o; try apply H. exfalso. eapply Hn; eauto.
Qed.

Lemma fed_run : forall ns to D dbg ops s la W ms s' evs,
  D < ns -> Inv1 s W ms -> InvT ns to s la -> no_interrupted W -> fed D dbg s ops la ->
  run dbg s ops = Ok (s', evs) -> no_interrupted (W ++ evs) /\ no_interrupted (u_event_queue s').
Proof.
  intros ns to D dbg. induction ops as [|o r IH]; intros s la W ms s' evs HD H1 HI HW HF H.
  - injection H as <- <-. rewrite app_nil_r. split; [exact HW|exact (proj2 HI)].
  - apply run_cons in H. destruct H as (s1 & e1 & e2 & E & E2 & ->). cbn [fed] in HF. destruct HF as (Hpoll & HF).
    rewrite E in HF. rewrite app_assoc.
    eapply (IH s1 (accept_time s o la) (W ++ e1)); eauto using inv1_step, invT_step.
    apply no_interrupted_app; [exact HW|].
    destruct HI as ((K1 & K2 & K3) & HQ).
    destruct o as [now nonce|now nonce m|now nonce cs|now inputs cs|now|now fr ck|lf|];
      try (rewrite (non_poll_silent _ _ _ _ _ E); [intros ? []|intros; discriminate]).
    destruct (poll_pushes _ _ _ _ _ _ _ E) as (pushed & -> & P1 & _).
    apply no_interrupted_app; [exact HQ|].
    intros t X. destruct (P1 t X) as (R & _ & _ & T & _). specialize (Hpoll R). lia.
Qed.

Lemma zmem_zinsert : forall x y l, zmem x (zinsert y l) = (x =? y) || zmem x l.
Proof.
  intros x y l. unfold zinsert. destruct (zmem y l) eqn:E; [|reflexivity].
  destruct (x =? y) eqn:Exy; [|reflexivity]. apply Z.eqb_eq in Exy. subst. rewrite E. reflexivity.
Qed.

Lemma zmem_zremove : forall x y l, zmem x (zremove y l) = negb (x =? y) && zmem x l.
Proof.
  intros x y. induction l as [|z l IH]; cbn [zremove zmem]; [rewrite andb_false_r; reflexivity|].
  destruct (y =? z) eqn:Eyz.
  - apply Z.eqb_eq in Eyz. subst z. rewrite IH. destruct (x =? y); reflexivity.
  - cbn [zmem]. rewrite IH. destruct (x =? z) eqn:Exz; [|reflexivity].
    apply Z.eqb_eq in Exz. subst z. rewrite Z.eqb_sym, Eyz. reflexivity.
Qed.

Lemma nodup_snoc : forall (l : list Z) x, NoDup l -> ~ In x l -> NoDup (l ++ [x]).
Proof.
  induction l as [|y l IH]; intros x Hn Hx; cbn [app].
  - constructor; [intros []|constructor].
  - inversion Hn; subst. constructor.
    + rewrite in_app_iff. intros [X|[X|[]]]; [contradiction|]. subst. apply Hx. left. reflexivity.
    + apply IH; [assumption|]. intro X. apply Hx. right. exact X.
Qed.

(* [reqs]: the outstanding nonces; [used]: all nonces drawn so far; [mn]: the nonces matched so far *)
Definition Inv3 (reqs used mn : list Z) : Prop :=
  (forall n, zmem n reqs = true -> In n used) /\ (forall n, In n mn -> In n used) /\ NoDup mn /\
  (forall n, In n mn -> zmem n reqs = false).

Lemma inv3_insert : forall reqs used mn d,
  Inv3 reqs used mn -> ~ In d used -> Inv3 (zinsert d reqs) (d :: used) mn.
Proof.
  intros reqs used mn d (H1 & H2 & H3 & H4) Hf. split; [|split; [|split]].
  - intros n X. rewrite zmem_zinsert in X. apply orb_true_iff in X. destruct X as [X|X].
    + left. apply Z.eqb_eq in X. auto.
    + right. auto.
  - intros n X. right. auto.
  - exact H3.
  - intros n X. rewrite zmem_zinsert, (H4 n X), orb_false_r. apply Z.eqb_neq. intro; subst. apply Hf. auto.
Qed.

Lemma inv3_remove : forall reqs used mn n,
  Inv3 reqs used mn -> zmem n reqs = true -> Inv3 (zremove n reqs) used (mn ++ [n]).
Proof.
  intros reqs used mn n (H1 & H2 & H3 & H4) Hz. split; [|split; [|split]].
  - intros k X. rewrite zmem_zremove in X. apply andb_true_iff in X. destruct X as [_ X]. auto.
  - intros k X. apply in_app_iff in X. destruct X as [X|[X|[]]]; [auto|subst; auto].
  - apply nodup_snoc; [exact H3|]. intro X. rewrite (H4 n X) in Hz. discriminate.
  - intros k X. rewrite zmem_zremove. apply in_app_iff in X. destruct X as [X|[X|[]]].
    + rewrite (H4 k X). apply andb_false_r.
    + subst k. rewrite Z.eqb_refl. reflexivity.
Qed.

Lemma draws_cases : forall s o, draws s o = [] \/ exists d, draws s o = [d].
Proof.
  intros s o. destruct o; cbn [draws]; auto.
  - destruct (pstate_eqb _ _); eauto.
  - destruct (match_of _ _); [auto|]. destruct (1 <? _); eauto.
  - destruct (pstate_eqb _ _ && _); eauto.
Qed.

Lemma inv3_step : forall dbg o s s' out W ms used mn,
  Inv1 s W ms -> Inv3 (u_sync_requests s) used mn -> (forall n, In n (draws s o) -> ~ In n used) ->
  step dbg o s = Ok (s', out) -> Inv3 (u_sync_requests s') (draws s o ++ used) (mn ++ map fst (match_of s o)).
Proof.
  intros dbg o s s' out W ms used mn (_ & _ & Hst) HI Hfresh H.
  destruct (step_c12 _ _ _ _ _ (st_facts_range _ _ _ Hst) H) as (_ & _ & _ & -> & _).
  assert (HI' : Inv3 (fold_right zremove (u_sync_requests s) (map fst (match_of s o))) used
                  (mn ++ map fst (match_of s o))).
  { destruct (match_of_cases s o) as [->|(n & mg & -> & _ & Hz)]; cbn [map fst fold_right].
    - rewrite app_nil_r. exact HI.
    - apply inv3_remove; assumption. }
  destruct (draws_cases s o) as [E|(d & E)]; rewrite E in *; cbn [fold_right app]; [exact HI'|].
  apply inv3_insert; [exact HI'|]. apply Hfresh. left. reflexivity.
Qed.

Lemma inv13_run : forall dbg ops s W ms used mn s' evs,
  Inv1 s W ms -> Inv3 (u_sync_requests s) used mn -> fresh_nonces dbg s used ops -> run dbg s ops = Ok (s', evs) ->
  NoDup (mn ++ map fst (matches dbg s ops)).
Proof.
  induction ops as [|o r IH]; intros s W ms used mn s' evs H1 H3 HF H; cbn [matches].
  - cbn. rewrite app_nil_r. apply H3.
  - apply run_cons in H. destruct H as (s1 & e1 & e2 & E & E2 & _). cbn [fresh_nonces] in HF.
    destruct HF as (Hfr & HF). rewrite E in *. rewrite map_app, app_assoc.
    eapply IH; eauto using inv1_step, inv3_step.
Qed.

Section Initial.
Variables (now0 magic : Z) (handles : list Z) (np lp mp timeout notify fps : Z) (desync : option Z).
Let s0 := ep_new now0 magic handles np lp mp timeout notify fps desync.

Lemma inv1_initial : Inv1 s0 [] [].
Proof.
  unfold Inv1, hs_facts, st_facts. cbn. pose proof num_facts.
  repeat split; try reflexivity; try lia; try tauto; intros; lia.
Qed.

Lemma reach_inv1 : forall dbg ops s evs,
  run dbg s0 ops = Ok (s, evs) -> Inv1 s evs (matches dbg s0 ops).
Proof. intros dbg ops s evs H. exact (inv1_run dbg ops s0 [] [] s evs inv1_initial H). Qed.

(* (a) the full grammar, for every operation sequence *)
Lemma event_grammar_full : forall dbg ops s evs,
  run dbg s0 ops = Ok (s, evs) -> event_grammar evs /\ event_grammar (evs ++ u_event_queue s).
Proof.
  intros dbg ops s evs H. apply reach_inv1 in H. destruct H as (_ & _ & Hst).
  apply st_facts_accepts in Hst. split; [exact (recog_prefix _ _ _ Hst)|exact Hst].
Qed.

Lemma grammar_modulo_disconnected : forall dbg ops s evs,
  run dbg s0 ops = Ok (s, evs) ->
  event_grammar (without_disconnected evs) /\ (count_disconnected evs <= 1)%nat.
Proof.
  intros dbg ops s evs H. split.
  - apply recog_without_disconnected. exact (proj1 (event_grammar_full _ _ _ _ H)).
  - apply reach_inv1 in H. destruct H as (Hc & _). rewrite cd_app in Hc. destruct (u_event_sent s); lia.
Qed.

Lemma invT_initial : InvT notify timeout s0 now0.
Proof. unfold InvT. cbn. repeat split. intros t []. Qed.

Lemma invT_run : forall dbg ops s la W ms s' evs,
  Inv1 s W ms -> InvT notify timeout s la -> run dbg s ops = Ok (s', evs) ->
  InvT notify timeout s' (last_accept dbg s ops la).
Proof.
  intros dbg. induction ops as [|o r IH]; intros s la W ms s' evs H1 HI H; cbn [last_accept].
  - injection H as <- _. exact HI.
  - apply run_cons in H. destruct H as (s1 & e1 & e2 & E & E2 & _). rewrite E.
    eapply IH; eauto using inv1_step, invT_step.
Qed.

(* (c) *)
Lemma no_early_timer : forall dbg ops s evs,
  run dbg s0 ops = Ok (s, evs) ->
  let la := last_accept dbg s0 ops now0 in
  u_last_recv_time s = la /\
  forall now nonce cs s' out, step dbg (OPoll now nonce cs) s = Ok (s', out) ->
    exists pushed, out = u_event_queue s ++ pushed /\
      (forall t, ~ In (EvNetworkInterrupted t) (u_event_queue s)) /\
      (forall t, In (EvNetworkInterrupted t) pushed -> la + notify < now /\ t = Z.max 0 (timeout - notify)) /\
      (In EvDisconnected pushed -> la + timeout < now) /\
      (u_state s = PRunning -> u_notify_sent s = false -> u_event_sent s = false -> la + notify < now ->
         In (EvNetworkInterrupted (Z.max 0 (timeout - notify))) pushed) /\
      (u_state s = PRunning -> u_event_sent s = false -> la + timeout < now -> In EvDisconnected pushed).
Proof.
  intros dbg ops s evs H. cbv zeta.
  pose proof (invT_run dbg ops s0 now0 [] [] s evs inv1_initial invT_initial H)
    as ((K1 & K2 & K3) & HQ).
  split; [exact K3|]. intros now nonce cs s' out Hp.
  destruct (poll_pushes _ _ _ _ _ _ _ Hp) as (pushed & E & P1 & P2 & P3 & P4).
  exists pushed. rewrite <- K1, <- K2, <- K3. split; [exact E|]. split; [exact HQ|].
  split; [|split; [|split]].
  - intros t X. destruct (P1 t X) as (_ & _ & _ & A & B). auto.
  - intro X. destruct (P2 X) as (_ & _ & A). exact A.
  - intros A B C D. exact (proj1 (P3 A B C D)).
  - intros A B C. exact (proj1 (P4 A B C)).
Qed.

End Initial.

Lemma unmatched_reply_no_effect : forall dbg now nonce magic n s s',
  match_of s (OMessage now nonce (mkMsg magic (SyncReply n))) = [] ->
  handle_message dbg now nonce (mkMsg magic (SyncReply n)) s = Ok s' ->
  u_state s' = u_state s /\ u_sync_remaining s' = u_sync_remaining s /\
  u_sync_requests s' = u_sync_requests s /\ u_remote_magic s' = u_remote_magic s /\
  ~ In EvSynchronized (skipn (length (u_event_queue s)) (u_event_queue s')).
Proof.
  intros dbg now nonce magic n s s' Hm H. apply handle_message_c12 in H. rewrite Hm in H.
  destruct (passes_filters s _); [|subst s'; repeat split; rewrite skipn_all; intros []].
  destruct H as (_ & _ & _ & _ & Hh & d & evs & Hall & _ & _ & Q). unfold hsk in Hh. injection Hh as E1 E2 E3 E4.
  repeat (split; [assumption|]).
  rewrite Q, skipn_app, skipn_all, Nat.sub_diag. cbn [skipn app]. rewrite !in_app_iff. intros [X|[X|X]].
  - unfold resumed_pre in X. destruct (resumed_cond s); cbn in X; intuition discriminate.
  - destruct d; cbn in X; intuition discriminate.
  - exact (inputs_no_sync _ Hall X).
Qed.

(* a concrete run is given by the facts about its result; the result itself is not written out *)
Lemma run_witness : forall (r : res (ep * list event)) (P : ep -> list event -> Prop),
  match r with Ok (s, evs) => P s evs | _ => False end -> exists s evs, r = Ok (s, evs) /\ P s evs.
Proof. intros [[s evs]| |] P H; [eauto|destruct H|destruct H]. Qed.

Definition w_status : list status := [(false, NULL); (false, NULL)].
Definition w_new : ep := ep_new 0 9 [1] 2 1 8 2000 500 60 None.
(* handshake with forged replies under magic 7: the nonces are 100..104 *)
Definition w_handshake : list op :=
  [OSynchronize 0 100;
   OMessage 0 101 (mkMsg 7 (SyncReply 100)); OMessage 0 102 (mkMsg 7 (SyncReply 101));
   OMessage 0 103 (mkMsg 7 (SyncReply 102)); OMessage 0 104 (mkMsg 7 (SyncReply 103));
   OMessage 0 105 (mkMsg 7 (SyncReply 104))].
Definition w_sends (now : Z) (n : nat) : list op :=
  map (fun f => OSendInput now [(0, (Z.of_nat f, 0))] w_status) (seq 0 n).

(* the code before 7ec8d35: 130 send_input calls without an ack, one poll: Disconnected twice *)
Definition w_multi : list op := w_handshake ++ w_sends 0 130 ++ [OPoll 0 200 w_status].

(* the code before 25d3021: interrupted endpoint, overflow in send_input, then a packet, then the poll
   (followed by disconnect, as the session does): Disconnected is followed by NetworkResumed *)
Definition w_after : list op :=
  w_handshake ++ [OPoll 501 200 w_status] ++ w_sends 501 129 ++
  [OMessage 501 200 (mkMsg 7 KeepAlive); OPoll 501 200 w_status; ODisconnect 501].

(* non-vacuity: a complete handshake under duplication and stray replies reaches Running *)
Definition w_dup : list op :=
  [OSynchronize 0 100;
   OMessage 1 101 (mkMsg 7 (SyncReply 100)); OMessage 1 102 (mkMsg 7 (SyncReply 100));
   OMessage 2 102 (mkMsg 3 (SyncReply 999)); OMessage 2 102 (mkMsg 7 (SyncReply 101));
   OMessage 3 103 (mkMsg 7 (SyncReply 101)); OMessage 3 103 (mkMsg 7 (SyncReply 102));
   OMessage 4 104 (mkMsg 7 (SyncReply 103)); OMessage 4 105 (mkMsg 7 (SyncReply 100));
   OMessage 5 105 (mkMsg 8 (SyncReply 104)); OMessage 6 106 (mkMsg 7 (SyncReply 104));
   OPoll 6 106 w_status].

(* non-vacuity: an interruption / resume cycle, then the timeout *)
Definition w_cycle : list op :=
  w_handshake ++
  [OPoll 500 200 w_status; OPoll 501 200 w_status; OMessage 600 200 (mkMsg 7 KeepAlive);
   OPoll 1100 200 w_status; OPoll 1101 200 w_status; OPoll 2600 200 w_status; OPoll 2601 200 w_status;
   OMessage 2700 200 (mkMsg 7 KeepAlive); OPoll 9000 200 w_status].

