(* Invariants of the InputQueue ring model: the ring is a window [low, n) of an append-only
   history of real inputs; no modelled assert fires under the stated preconditions. *)
From GGRS Require Import Base Consts Queue.
From GGRS Require Import LiaSetup.
Open Scope Z_scope.

Lemma QLEN_pos : 0 < QLEN.
Proof. reflexivity. Qed.
Global Opaque QLEN.

Lemma upd_length : forall l i x, length (upd l i x) = length l.
Proof. induction l as [|y r IH]; intros [|k] x; cbn; auto. Qed.

Lemma nth_upd_same : forall l i x d, (i < length l)%nat -> nth i (upd l i x) d = x.
Proof.
  induction l as [|y r IH]; intros [|k] x d H; cbn in *; [lia|lia|reflexivity|].
  apply IH. lia.
Qed.

Lemma nth_upd_other : forall l i j x d, i <> j -> nth j (upd l i x) d = nth j l d.
Proof.
  induction l as [|y r IH]; intros [|k] [|j] x d H; cbn; auto; try congruence.
Qed.

Lemma slot_upd_same : forall l i x, 0 <= i < Z.of_nat (length l) -> slot (upd l (Z.to_nat i) x) i = x.
Proof. intros l i x H. unfold slot. apply nth_upd_same. lia. Qed.

Lemma slot_upd_other : forall l i j x, 0 <= i -> 0 <= j -> i <> j -> slot (upd l (Z.to_nat i) x) j = slot l j.
Proof. intros l i j x Hi Hj H. unfold slot. apply nth_upd_other. lia. Qed.

Lemma mod_inj_near : forall m f g, 0 < m -> Z.abs (f - g) < m -> f mod m = g mod m -> f = g.
Proof.
  intros m f g Hm Hd. assert (Hm0 : m <> 0) by lia. intro E.
  assert (D : (m | Z.abs (f - g))).
  { apply Z.divide_abs_r, Z.mod_divide; [exact Hm0|].
    rewrite Zminus_mod, E, Z.sub_diag. apply Z.mod_0_l, Hm0. }
  clear E. destruct (Z.eq_dec f g) as [|Hne]; [assumption|].
  apply Z.divide_pos_le in D; lia.
Qed.

Lemma prev_pos_mod : forall n, prev_pos (n mod QLEN) = (n - 1) mod QLEN.
Proof.
  intro n. pose proof QLEN_pos as HQ. unfold prev_pos.
  pose proof (Z.div_mod n QLEN ltac:(lia)) as D. pose proof (Z.mod_pos_bound n QLEN HQ) as B.
  revert D B. generalize (n mod QLEN) (n / QLEN). intros r d D B.
  destruct (Z.eqb_spec r 0) as [E|E].
  - apply (Z.mod_unique_pos _ _ (d - 1)); lia.
  - apply (Z.mod_unique_pos _ _ d); lia.
Qed.

Definition hlen (hist : list Z) : Z := Z.of_nat (length hist).
Definition hval (hist : list Z) (f : Z) : Z := nth (Z.to_nat f) hist 0.
Definition hlast (hist : list Z) : Z := last hist 0.

Lemma hlen_nonneg : forall h, 0 <= hlen h.
Proof. intro h. unfold hlen. lia. Qed.
Lemma hlen_zero : forall h, hlen h = 0 <-> h = [].
Proof. intro h. unfold hlen. destruct h; cbn; split; intro; try lia; try discriminate; auto. Qed.
Lemma hlen_app : forall h v, hlen (h ++ [v]) = hlen h + 1.
Proof. intros. unfold hlen. rewrite app_length. cbn. lia. Qed.
Lemma hlen_repeat : forall h v n, hlen (h ++ repeat v n) = hlen h + Z.of_nat n.
Proof. intros. unfold hlen. rewrite app_length, repeat_length. lia. Qed.
Lemma hlast_app : forall h v, hlast (h ++ [v]) = v.
Proof. intros h v. unfold hlast. apply last_last. Qed.
Lemma hlast_nil : hlast [] = 0.
Proof. reflexivity. Qed.
Lemma hlast_repeat : forall h v n, (0 < n)%nat -> hlast (h ++ repeat v n) = v.
Proof.
  intros h v n Hn. destruct n as [|k]; [lia|].
  cbn [repeat]. rewrite repeat_cons, app_assoc. apply hlast_app.
Qed.
Lemma hval_snoc_old : forall h v f, 0 <= f < hlen h -> hval (h ++ [v]) f = hval h f.
Proof. intros h v f Hf. unfold hval. apply app_nth1. unfold hlen in Hf. lia. Qed.
Lemma hval_snoc_new : forall h v, hval (h ++ [v]) (hlen h) = v.
Proof. intros h v. unfold hval, hlen. rewrite Nat2Z.id. apply nth_middle. Qed.
Lemma hval_last : forall h, h <> [] -> hval h (hlen h - 1) = hlast h.
Proof.
  intros h Hne. destruct (exists_last Hne) as (l & x & ->).
  rewrite hlen_app, Z.add_simpl_r, hlast_app. apply hval_snoc_new.
Qed.

(* hist = the real inputs of frames 0 .. n-1 ever inserted; the ring holds frames low .. n-1 *)
Record RInv (q : queue) (hist : list Z) (low : Z) : Prop := {
  ri_len : Z.of_nat (length (q_inputs q)) = QLEN;
  ri_head : q_head q = hlen hist mod QLEN;
  ri_last : q_last_added q = hlen hist - 1;
  ri_first : q_first q = (hlen hist =? 0);
  ri_low : 0 <= low /\ (hist <> [] -> low < hlen hist) /\ (hist = [] -> low = 0);
  ri_tail : q_tail q = low mod QLEN;
  ri_length : q_length q = hlen hist - low;
  ri_cap : hlen hist - low <= QLEN;
  ri_slots : forall f, low <= f < hlen hist -> slot (q_inputs q) (f mod QLEN) = mkpi f (hval hist f);
  ri_blank : hist = [] -> q_inputs q = repeat (blank NULL) (Z.to_nat QLEN);
}.

Lemma RInv_new : RInv q_new [] 0.
Proof.
  pose proof QLEN_pos.
  constructor; unfold q_new, hlen;
    cbn [q_inputs q_head q_tail q_length q_first q_last_added length Z.of_nat].
  - rewrite repeat_length. lia.
  - rewrite Z.mod_0_l; lia.
  - reflexivity.
  - reflexivity.
  - repeat split; try lia; congruence.
  - rewrite Z.mod_0_l; lia.
  - lia.
  - lia.
  - intros f Hf. lia.
  - reflexivity.
Qed.

Lemma RInv_ext : forall q q' hist low,
  RInv q hist low ->
  q_head q' = q_head q -> q_tail q' = q_tail q -> q_length q' = q_length q -> q_first q' = q_first q ->
  q_last_added q' = q_last_added q -> q_inputs q' = q_inputs q -> RInv q' hist low.
Proof.
  intros q q' hist low I H1 H2 H3 H4 H5 H6. destruct I.
  constructor; rewrite ?H1, ?H2, ?H3, ?H4, ?H5, ?H6; auto.
Qed.

Lemma RInv_with_delay : forall q hist low d, RInv q hist low -> RInv (with_delay q d) hist low.
Proof. intros q hist low d I. eapply RInv_ext; [exact I|reflexivity..]. Qed.

Lemma RInv_low : forall q hist low, RInv q hist low ->
  0 <= low <= hlen hist /\ (0 < hlen hist -> low < hlen hist).
Proof.
  intros q hist low I. destruct (ri_low _ _ _ I) as (L0 & L1 & L2).
  destruct hist as [|x r]; [rewrite (L2 eq_refl); cbn; lia|].
  specialize (L1 ltac:(discriminate)). lia.
Qed.

Lemma RInv_empty : forall q hist low, RInv q hist low -> hlen hist = 0 ->
  q_inputs q = repeat (blank NULL) (Z.to_nat QLEN).
Proof. intros q hist low I E. apply (ri_blank _ _ _ I), hlen_zero, E. Qed.

Lemma tail_frame : forall q hist low, RInv q hist low ->
  pi_frame (slot (q_inputs q) (q_tail q)) = if hlen hist =? 0 then NULL else low.
Proof.
  intros q hist low I. rewrite (ri_tail _ _ _ I). pose proof (RInv_low _ _ _ I) as L.
  destruct (Z.eqb_spec (hlen hist) 0) as [E|E].
  - rewrite (RInv_empty _ _ _ I E). unfold slot. rewrite nth_repeat. reflexivity.
  - rewrite (ri_slots _ _ _ I low) by lia. reflexivity.
Qed.

Lemma prev_slot : forall q hist low, RInv q hist low ->
  slot (q_inputs q) (prev_pos (q_head q)) = if hlen hist =? 0 then blank NULL else mkpi (hlen hist - 1) (hlast hist).
Proof.
  intros q hist low I. pose proof (RInv_low _ _ _ I) as L.
  destruct (Z.eqb_spec (hlen hist) 0) as [E|E].
  - rewrite (RInv_empty _ _ _ I E). apply nth_repeat.
  - rewrite (ri_head _ _ _ I), prev_pos_mod, (ri_slots _ _ _ I (hlen hist - 1)) by lia.
    rewrite hval_last by (rewrite <- hlen_zero; exact E). reflexivity.
Qed.

Lemma prev_val : forall q hist low, RInv q hist low ->
  pi_val (slot (q_inputs q) (prev_pos (q_head q))) = hlast hist.
Proof.
  intros q hist low I. rewrite (prev_slot _ _ _ I).
  destruct (Z.eqb_spec (hlen hist) 0) as [E|E]; [|reflexivity].
  apply hlen_zero in E. subst. reflexivity.
Qed.

Lemma expected_frame : forall q hist low, RInv q hist low ->
  (if q_first q then 0 else pi_frame (slot (q_inputs q) (prev_pos (q_head q))) + 1) = hlen hist.
Proof.
  intros q hist low I. rewrite (ri_first _ _ _ I), (prev_slot _ _ _ I).
  destruct (Z.eqb_spec (hlen hist) 0); cbn; lia.
Qed.

Definition pred_ok (q : queue) (fn : Z) : Prop :=
  pi_frame (q_pred q) = NULL \/ pi_frame (q_pred q) = fn.

Definition fi_after (q : queue) (v fn : Z) : Z :=
  if pi_frame (q_pred q) =? NULL then q_first_incorrect q
  else if (q_first_incorrect q =? NULL) && negb (pi_val (q_pred q) =? v) then fn else q_first_incorrect q.
Definition pred_after (q : queue) (v fn : Z) : pinput :=
  if pi_frame (q_pred q) =? NULL then q_pred q
  else if (pi_frame (q_pred q) =? q_last_requested q) && (fi_after q v fn =? NULL)
       then mkpi NULL (pi_val (q_pred q)) else mkpi (pi_frame (q_pred q) + 1) (pi_val (q_pred q)).

Lemma fi_after_idle : forall q v fn, pi_frame (q_pred q) = NULL -> fi_after q v fn = q_first_incorrect q.
Proof. intros q v fn H. unfold fi_after. rewrite H. reflexivity. Qed.
Lemma pred_after_idle : forall q v fn, pi_frame (q_pred q) = NULL -> pred_after q v fn = q_pred q.
Proof. intros q v fn H. unfold pred_after. rewrite H. reflexivity. Qed.

Definition push (q : queue) (v fn : Z) : queue :=
  mkq ((q_head q + 1) mod QLEN) (q_tail q) (q_length q + 1) false fn (q_last_user q)
      (fi_after q v fn) (q_last_requested q) (q_delay q)
      (upd (q_inputs q) (Z.to_nat (q_head q)) (mkpi fn v)) (pred_after q v fn).

Lemma add_by_frame_push : forall q hist low v,
  RInv q hist low -> hlen hist - low < QLEN -> pred_ok q (hlen hist) ->
  add_input_by_frame q v (hlen hist) = Ok (push q v (hlen hist)).
Proof.
  intros q hist low v I Hcap Hp.
  unfold add_input_by_frame, push, pred_after, fi_after.
  rewrite (ri_last _ _ _ I), (prev_slot _ _ _ I), (ri_length _ _ _ I).
  assert (((hlen hist - 1 =? NULL) || (hlen hist =? hlen hist - 1 + 1)) = true) as -> by lia.
  assert (((hlen hist =? 0) ||
           (pi_frame (if hlen hist =? 0 then blank NULL else mkpi (hlen hist - 1) (hlast hist)) =? hlen hist - 1)) = true) as ->
    by (destruct (Z.eqb_spec (hlen hist) 0); cbn; lia).
  assert ((QLEN <? hlen hist - low + 1) = false) as -> by lia.
  destruct (Z.eqb_spec (pi_frame (q_pred q)) NULL) as [En|En]; cbn [negb]; [reflexivity|].
  destruct Hp as [Hp|Hp]; [congruence|]. rewrite Hp, Z.eqb_refl. reflexivity.
Qed.

Lemma RInv_push : forall q hist low v,
  RInv q hist low -> hlen hist - low < QLEN -> RInv (push q v (hlen hist)) (hist ++ [v]) low.
Proof.
  intros q hist low v I Hcap. pose proof QLEN_pos as HQ. pose proof (RInv_low _ _ _ I) as L.
  assert (Hhead : 0 <= q_head q < QLEN) by (rewrite (ri_head _ _ _ I); apply Z.mod_pos_bound; lia).
  constructor; cbn [push q_inputs q_head q_tail q_length q_first q_last_added]; rewrite ?hlen_app.
  - rewrite upd_length. apply (ri_len _ _ _ I).
  - rewrite (ri_head _ _ _ I). apply Zplus_mod_idemp_l.
  - lia.
  - lia.
  - split; [lia|]. split; [lia|]. intro E. destruct hist; discriminate.
  - apply (ri_tail _ _ _ I).
  - rewrite (ri_length _ _ _ I). lia.
  - lia.
  - intros f Hf. destruct (Z.eq_dec f (hlen hist)) as [->|Hne].
    + rewrite <- (ri_head _ _ _ I), slot_upd_same by (rewrite (ri_len _ _ _ I); lia).
      rewrite hval_snoc_new. reflexivity.
    + rewrite slot_upd_other.
      * rewrite (ri_slots _ _ _ I f), hval_snoc_old by lia. reflexivity.
      * lia.
      * apply Z.mod_pos_bound; lia.
      * rewrite (ri_head _ _ _ I). intro E. apply mod_inj_near in E; lia.
  - intro E. destruct hist; discriminate.
Qed.

Lemma pred_ok_push : forall q v fn, pred_ok q fn -> pred_ok (push q v fn) (fn + 1).
Proof.
  intros q v fn Hp. unfold pred_ok, push, pred_after. cbn [q_pred].
  destruct (Z.eqb_spec (pi_frame (q_pred q)) NULL) as [En|En]; [left; exact En|].
  destruct Hp as [Hp|Hp]; [congruence|]. rewrite Hp.
  destruct (_ && _); cbn [pi_frame]; [left|right]; reflexivity.
Qed.

Lemma insertion_cases : forall q v n, 0 <= n -> pred_ok q n ->
  (pi_frame (q_pred q) = NULL /\ fi_after q v n = q_first_incorrect q /\ pred_after q v n = q_pred q) \/
  (* the prediction guessed v: it stays in force, or is retired if n was the last frame requested *)
  (pi_frame (q_pred q) = n /\ q_first_incorrect q = NULL /\ pi_val (q_pred q) = v /\ fi_after q v n = NULL /\
   pred_after q v n = mkpi (if n =? q_last_requested q then NULL else n + 1) v) \/
  (* a wrong guess makes n the first incorrect frame, one recorded earlier stays; the prediction moves on *)
  (pi_frame (q_pred q) = n /\ (fi_after q v n = n \/ fi_after q v n = q_first_incorrect q) /\
   fi_after q v n <> NULL /\ pi_frame (pred_after q v n) = n + 1).
Proof.
  intros q v n Hn [Hp|Hp].
  - left. rewrite fi_after_idle, pred_after_idle by exact Hp. auto.
  - right. unfold pred_after, fi_after. rewrite Hp.
    assert ((n =? NULL) = false) as -> by (unfold NULL; lia).
    destruct (Z.eqb_spec (q_first_incorrect q) NULL) as [Ef|Ef]; cbn [andb].
    + destruct (Z.eqb_spec (pi_val (q_pred q)) v) as [Ev|Ev]; cbn [negb].
      * left. rewrite Ef, Ev. destruct (n =? q_last_requested q); auto.
      * right. assert ((n =? NULL) = false) as -> by (unfold NULL; lia). rewrite andb_false_r.
        unfold NULL. auto with zarith.
    + right. apply Z.eqb_neq in Ef as E. rewrite E, andb_false_r. auto.
Qed.

Lemma add_by_frame_ok : forall q hist low v,
  RInv q hist low -> hlen hist - low < QLEN -> pred_ok q (hlen hist) ->
  exists q', add_input_by_frame q v (hlen hist) = Ok q' /\ RInv q' (hist ++ [v]) low /\
             q_delay q' = q_delay q /\ q_last_user q' = q_last_user q /\ q_last_requested q' = q_last_requested q /\
             q_first_incorrect q' = fi_after q v (hlen hist) /\ q_pred q' = pred_after q v (hlen hist) /\
             pred_ok q' (hlen hist + 1).
Proof.
  intros q hist low v I Hcap Hp. exists (push q v (hlen hist)).
  split; [exact (add_by_frame_push q hist low v I Hcap Hp)|].
  split; [exact (RInv_push q hist low v I Hcap)|].
  repeat (split; [reflexivity|]). apply pred_ok_push, Hp.
Qed.

Lemma fill_to_done : forall fuel q v e t, t <= e -> fill_to fuel q v e t = Ok q.
Proof.
  intros fuel q v e t H. destruct fuel; cbn [fill_to]; apply Z.leb_le in H; rewrite H; reflexivity.
Qed.

(* a fill of more than zero frames only happens while nothing is predicted *)
Lemma fill_to_ok : forall fuel q hist low v t,
  RInv q hist low -> hlen hist <= t -> (Z.to_nat (t - hlen hist) <= fuel)%nat ->
  t - low <= QLEN -> (hlen hist < t -> pi_frame (q_pred q) = NULL) ->
  exists q', fill_to fuel q v (hlen hist) t = Ok q' /\
             RInv q' (hist ++ repeat v (Z.to_nat (t - hlen hist))) low /\
             q_delay q' = q_delay q /\ q_last_user q' = q_last_user q /\ q_last_requested q' = q_last_requested q /\
             q_first_incorrect q' = q_first_incorrect q /\ q_pred q' = q_pred q.
Proof.
  induction fuel as [|k IH]; intros q hist low v t I Ht Hf Hcap Hp;
    destruct (Z.le_gt_cases t (hlen hist)) as [Hle|Hgt].
  1, 3: exists q; rewrite fill_to_done by lia; replace (Z.to_nat (t - hlen hist)) with 0%nat by lia;
        rewrite app_nil_r; auto 10.
  - lia.
  - specialize (Hp Hgt). cbn [fill_to]. assert ((t <=? hlen hist) = false) as -> by lia.
    rewrite (add_by_frame_push q hist low v I ltac:(lia) (or_introl Hp)). cbn [res_bind].
    destruct (IH (push q v (hlen hist)) (hist ++ [v]) low v t) as (q2 & E2 & I2 & D2 & U2 & R2 & F2 & P2);
      rewrite ?hlen_app; try lia.
    + apply RInv_push; [exact I|lia].
    + intros _. cbn [push q_pred]. rewrite pred_after_idle; exact Hp.
    + exists q2. rewrite hlen_app in E2, I2. split; [exact E2|].
      replace (Z.to_nat (t - hlen hist)) with (S (Z.to_nat (t - (hlen hist + 1)))) by lia.
      cbn [repeat]. rewrite <- app_assoc in I2. split; [exact I2|].
      rewrite D2, U2, R2, F2, P2. cbn [push q_delay q_last_user q_last_requested q_first_incorrect q_pred].
      rewrite fi_after_idle, pred_after_idle by exact Hp. auto.
Qed.

Definition set_last_user (q : queue) (u : Z) : queue :=
  mkq (q_head q) (q_tail q) (q_length q) (q_first q) (q_last_added q) u
      (q_first_incorrect q) (q_last_requested q) (q_delay q) (q_inputs q) (q_pred q).

Lemma add_input_next : forall q uf v,
  (q_last_user q = NULL \/ uf = q_last_user q + 1) ->
  add_input q uf v =
    res_bind (advance_queue_head (set_last_user q uf) uf) (fun '(q2, nf) =>
      if nf =? NULL then Ok (q2, NULL)
      else res_bind (add_input_by_frame q2 v nf) (fun q3 => Ok (q3, nf))).
Proof.
  intros q uf v Hs. unfold add_input.
  assert ((negb (q_last_user q =? NULL) && negb (uf =? q_last_user q + 1)) = false) as ->.
  { destruct Hs as [->| ->]; [reflexivity|]. rewrite Z.eqb_refl. cbn. apply andb_false_r. }
  reflexivity.
Qed.

Lemma add_input_seq : forall q uf v,
  (q_last_user q = NULL \/ uf = q_last_user q + 1) -> 0 <= uf ->
  add_input q uf v =
    res_bind (advance_queue_head (set_last_user q uf) uf) (fun '(q2, nf) =>
      if nf =? NULL then Ok (q2, NULL)
      else res_bind (add_input_by_frame q2 v nf) (fun q3 => Ok (q3, nf))).
Proof. intros q uf v Hs _. exact (add_input_next q uf v Hs). Qed.

(* a submission for a frame the queue already holds (the delay was lowered) is dropped *)
Lemma add_input_late : forall q hist low uf v,
  RInv q hist low -> (q_last_user q = NULL \/ uf = q_last_user q + 1) ->
  uf + q_delay q < hlen hist -> add_input q uf v = Ok (set_last_user q uf, NULL).
Proof.
  intros q hist low uf v I Hs Hlt. rewrite (add_input_next q uf v Hs).
  assert (I0 : RInv (set_last_user q uf) hist low) by (eapply RInv_ext; [exact I|reflexivity..]).
  unfold advance_queue_head. rewrite (expected_frame _ _ _ I0). cbn [set_last_user q_delay].
  apply Z.ltb_lt in Hlt as ->. reflexivity.
Qed.

Lemma add_input_fills : forall q hist low uf v,
  RInv q hist low -> (q_last_user q = NULL \/ uf = q_last_user q + 1) ->
  let t := uf + q_delay q in
  hlen hist <= t -> t + 1 - low <= QLEN ->
  pred_ok q (hlen hist) -> (hlen hist < t -> pi_frame (q_pred q) = NULL) ->
  exists q', add_input q uf v = Ok (q', t) /\
    RInv q' (hist ++ repeat (hlast hist) (Z.to_nat (t - hlen hist)) ++ [v]) low /\
    q_delay q' = q_delay q /\ q_last_user q' = uf /\ q_last_requested q' = q_last_requested q /\
    q_first_incorrect q' = fi_after q v t /\ q_pred q' = pred_after q v t.
Proof.
  intros q hist low uf v I Hs t Hge Hcap Hp Hidle. pose proof (hlen_nonneg hist) as Hnn.
  rewrite (add_input_next q uf v Hs).
  assert (I0 : RInv (set_last_user q uf) hist low) by (eapply RInv_ext; [exact I|reflexivity..]).
  unfold advance_queue_head.
  rewrite (expected_frame _ _ _ I0), (prev_val _ _ _ I0). cbn [set_last_user q_delay]. fold t.
  apply Z.ltb_ge in Hge as Hge'. rewrite Hge'.
  destruct (fill_to_ok (Z.to_nat (t - hlen hist)) (set_last_user q uf) hist low (hlast hist) t I0 Hge
              ltac:(lia) ltac:(lia) Hidle) as (q1 & E1 & I1 & D1 & U1 & R1 & F1 & P1).
  rewrite E1. cbn [res_bind set_last_user q_delay q_last_user q_last_requested q_first_incorrect q_pred] in *.
  set (hist1 := hist ++ repeat (hlast hist) (Z.to_nat (t - hlen hist))) in *.
  assert (Hl1 : hlen hist1 = t) by (subst hist1; rewrite hlen_repeat; lia).
  rewrite (prev_slot _ _ _ I1), Hl1.
  assert ((t =? 0) || (t =? pi_frame (if t =? 0 then blank NULL else mkpi (t - 1) (hlast hist1)) + 1) = true) as ->
    by (destruct (Z.eqb_spec t 0); cbn; lia).
  cbn [negb res_bind]. cbv beta iota.
  assert ((t =? NULL) = false) as -> by (unfold NULL; lia).
  assert (E2 : add_input_by_frame q1 v t = Ok (push q1 v t)).
  { rewrite <- Hl1. apply (add_by_frame_push q1 hist1 low v I1); [lia|].
    rewrite Hl1. unfold pred_ok. rewrite P1.
    destruct (Z.eq_dec t (hlen hist)) as [->|]; [exact Hp|left; apply Hidle; lia]. }
  rewrite E2. cbn [res_bind]. exists (push q1 v t). split; [reflexivity|].
  split; [rewrite app_assoc; fold hist1; rewrite <- Hl1; apply RInv_push; [exact I1|lia]|].
  unfold push, pred_after, fi_after. cbn [q_delay q_last_user q_last_requested q_first_incorrect q_pred].
  rewrite D1, U1, R1, F1, P1. auto.
Qed.

Lemma add_input_ok : forall q hist low uf v,
  RInv q hist low -> pi_frame (q_pred q) = NULL -> 0 <= q_delay q ->
  (q_last_user q = NULL \/ uf = q_last_user q + 1) -> 0 <= uf ->
  let t := uf + q_delay q in
  (t < hlen hist -> add_input q uf v = Ok (set_last_user q uf, NULL)) /\
  (hlen hist <= t -> t + 1 - low <= QLEN ->
   exists q', add_input q uf v = Ok (q', t) /\
     RInv q' (hist ++ repeat (hlast hist) (Z.to_nat (t - hlen hist)) ++ [v]) low /\
     q_delay q' = q_delay q /\ q_last_user q' = uf /\ q_last_requested q' = q_last_requested q /\
     q_first_incorrect q' = q_first_incorrect q /\ q_pred q' = q_pred q).
Proof.
  intros q hist low uf v I Hp Hd Hs Hu t. split.
  - apply (add_input_late q hist low uf v I Hs).
  - intros Hge Hcap. rewrite <- (fi_after_idle q v t Hp), <- (pred_after_idle q v t Hp).
    apply (add_input_fills q hist low uf v I Hs Hge Hcap (or_introl Hp) (fun _ => Hp)).
Qed.

Definition delay_fills (q : queue) (hist : list Z) (d : Z) : nat :=
  if (hlen hist =? 0) || (q_last_user q =? NULL) then 0%nat
  else Z.to_nat (q_last_user q + d + 1 - hlen hist).

Lemma set_frame_delay_ok : forall q hist low d,
  RInv q hist low -> pi_frame (q_pred q) = NULL ->
  hlen hist + Z.of_nat (delay_fills q hist d) - low <= QLEN ->
  exists q', set_frame_delay q d = Ok (q', fill_list (hlast hist) (hlen hist) (delay_fills q hist d)) /\
    RInv q' (hist ++ repeat (hlast hist) (delay_fills q hist d)) low /\
    q_delay q' = d /\ q_last_user q' = q_last_user q /\ q_last_requested q' = q_last_requested q /\
    q_first_incorrect q' = q_first_incorrect q /\ q_pred q' = q_pred q.
Proof.
  intros q hist low d I Hp Hcap. unfold set_frame_delay, delay_fills in *.
  rewrite (ri_last _ _ _ I).
  assert (E0 : (hlen hist - 1 =? NULL) = (hlen hist =? 0)) by (unfold NULL; lia).
  rewrite E0.
  pose proof (RInv_with_delay q hist low d I) as I1.
  destruct ((hlen hist =? 0) || (q_last_user q =? NULL)) eqn:Ec.
  - exists (with_delay q d). cbn [repeat fill_list]. rewrite app_nil_r. auto 10.
  - replace (hlen hist - 1 + 1) with (hlen hist) by lia.
    destruct (Z.ltb_spec (q_last_user q + d) (hlen hist)) as [Hlt|Hge].
    + exists (with_delay q d).
      replace (Z.to_nat (q_last_user q + d + 1 - hlen hist)) with 0%nat by lia.
      cbn [repeat fill_list]. rewrite app_nil_r. auto 10.
    + rewrite (prev_val _ _ _ I).
      destruct (fill_to_ok (Z.to_nat (q_last_user q + d + 1 - hlen hist)) (with_delay q d) hist low (hlast hist)
                  (q_last_user q + d + 1) I1 ltac:(lia) ltac:(lia) ltac:(lia) (fun _ => Hp))
        as (q2 & E2 & I2 & D2 & U2 & R2 & F2 & P2).
      rewrite E2. cbn [res_bind]. exists q2. auto 10.
Qed.

Definition discard_low (q : queue) (low f : Z) : Z :=
  let f' := if q_last_requested q =? NULL then f else Z.min f (q_last_requested q) in
  Z.max low f'.

Definition drop_oldest (q : queue) (k : Z) : queue :=
  mkq (q_head q) ((q_tail q + k) mod QLEN) (q_length q - k) (q_first q) (q_last_added q) (q_last_user q)
      (q_first_incorrect q) (q_last_requested q) (q_delay q) (q_inputs q) (q_pred q).

Lemma RInv_drop_oldest : forall q hist low k,
  RInv q hist low -> 0 <= k -> low + k < hlen hist -> RInv (drop_oldest q k) hist (low + k).
Proof.
  intros q hist low k I Hk Hlt. pose proof (RInv_low _ _ _ I) as L. pose proof (ri_cap _ _ _ I) as C.
  constructor; cbn [drop_oldest q_inputs q_head q_tail q_length q_first q_last_added]; try apply I.
  - split; [lia|]. split; [lia|]. intros ->. cbn in Hlt. lia.
  - rewrite (ri_tail _ _ _ I). apply Zplus_mod_idemp_l.
  - rewrite (ri_length _ _ _ I). lia.
  - lia.
  - intros g Hg. apply (ri_slots _ _ _ I). lia.
Qed.

Lemma discard_ok : forall q hist low f,
  RInv q hist low -> f < hlen hist - 1 ->
  RInv (discard_confirmed_frames q f) hist (discard_low q low f) /\
  q_delay (discard_confirmed_frames q f) = q_delay q /\
  q_last_user (discard_confirmed_frames q f) = q_last_user q /\
  q_last_requested (discard_confirmed_frames q f) = q_last_requested q /\
  q_first_incorrect (discard_confirmed_frames q f) = q_first_incorrect q /\
  q_pred (discard_confirmed_frames q f) = q_pred q.
Proof.
  intros q hist low f I Hf. pose proof (RInv_low _ _ _ I) as L.
  unfold discard_confirmed_frames, discard_low.
  set (f' := if q_last_requested q =? NULL then f else Z.min f (q_last_requested q)).
  assert (Hf' : f' <= f) by (subst f'; destruct (q_last_requested q =? NULL); lia).
  assert ((q_last_added q <=? f') = false) as -> by (rewrite (ri_last _ _ _ I); lia).
  rewrite (tail_frame _ _ _ I).
  assert ((f' <=? (if hlen hist =? 0 then NULL else low)) = (f' <=? low)) as ->
    by (destruct (Z.eqb_spec (hlen hist) 0); unfold NULL; lia).
  destruct (Z.leb_spec f' low) as [Hle|Hgt].
  - replace (Z.max low f') with low by lia. auto 10.
  - assert ((hlen hist =? 0) = false) as -> by lia.
    replace (Z.max low f') with (low + (f' - low)) by lia.
    split; [apply (RInv_drop_oldest q hist low (f' - low)); [exact I|lia|lia]|]. auto 10.
Qed.

Lemma reset_ok : forall q hist low, RInv q hist low -> RInv (reset_prediction q) hist low.
Proof. intros q hist low I. eapply RInv_ext; [exact I|reflexivity..]. Qed.

Definition set_last_requested (q : queue) (f : Z) : queue :=
  mkq (q_head q) (q_tail q) (q_length q) (q_first q) (q_last_added q) (q_last_user q)
      (q_first_incorrect q) f (q_delay q) (q_inputs q) (q_pred q).
Definition set_requested_pred (q : queue) (f : Z) (p : pinput) : queue :=
  mkq (q_head q) (q_tail q) (q_length q) (q_first q) (q_last_added q) (q_last_user q)
      (q_first_incorrect q) f (q_delay q) (q_inputs q) p.

Lemma tail_offset_mod : forall f low, (f - low + low mod QLEN) mod QLEN = f mod QLEN.
Proof.
  intros f low. pose proof QLEN_pos.
  rewrite Zplus_mod_idemp_r. f_equal. lia.
Qed.

Section WithPredictor.
Variable predict : Z -> Z.

Definition predval (hist : list Z) : Z := if hlen hist =? 0 then 0 else predict (hlast hist).

Lemma input_confirmed : forall q hist low f,
  RInv q hist low -> q_first_incorrect q = NULL -> pi_frame (q_pred q) = NULL ->
  low <= f < hlen hist ->
  input predict q f = Ok (set_last_requested q f, (hval hist f, Confirmed)).
Proof.
  intros q hist low f I Hfi Hp Hf. unfold input, set_last_requested.
  pose proof (RInv_low _ _ _ I) as L.
  rewrite Hfi, Z.eqb_refl. cbn [negb].
  rewrite (tail_frame _ _ _ I).
  assert ((hlen hist =? 0) = false) as -> by lia.
  assert ((f <? low) = false) as -> by lia.
  rewrite Hp. assert ((NULL <? 0) = true) as -> by reflexivity.
  rewrite (ri_length _ _ _ I).
  assert ((f - low <? hlen hist - low) = true) as -> by lia.
  rewrite (ri_tail _ _ _ I), tail_offset_mod.
  rewrite (ri_slots _ _ _ I f Hf). cbn [pi_frame pi_val]. rewrite Z.eqb_refl.
  reflexivity.
Qed.

Lemma input_predict_start : forall q hist low f,
  RInv q hist low -> q_first_incorrect q = NULL -> pi_frame (q_pred q) = NULL ->
  hlen hist <= f -> 0 <= f ->
  input predict q f =
    Ok (set_requested_pred q f (mkpi (hlen hist) (predval hist)), (predval hist, Predicted)).
Proof.
  intros q hist low f I Hfi Hp Hf H0. pose proof (RInv_low _ _ _ I) as L.
  unfold input, predval, set_requested_pred.
  rewrite Hfi, Hp, (tail_frame _ _ _ I). change (NULL =? NULL) with true. change (NULL <? 0) with true.
  destruct (Z.eqb_spec (hlen hist) 0) as [E|E]; cbv iota; cbn [negb].
  - assert ((f <? NULL) = false) as -> by (unfold NULL; lia).
    assert ((f - NULL <? q_length q) = false) as -> by (rewrite (ri_length _ _ _ I); unfold NULL; lia).
    assert ((q_last_added q =? NULL) = true) as -> by (rewrite (ri_last _ _ _ I), E; reflexivity).
    rewrite orb_true_r, E. reflexivity.
  - assert ((f <? low) = false) as -> by lia.
    assert ((f - low <? q_length q) = false) as -> by (rewrite (ri_length _ _ _ I); lia).
    assert ((f =? 0) = false) as -> by lia.
    assert ((q_last_added q =? NULL) = false) as -> by (rewrite (ri_last _ _ _ I); unfold NULL; lia).
    rewrite (prev_slot _ _ _ I). apply Z.eqb_neq in E as ->. cbn [orb pi_frame pi_val]. rewrite Z.sub_add.
    assert ((hlen hist =? NULL) = false) as -> by (unfold NULL; lia). reflexivity.
Qed.

Lemma input_predicting : forall q hist low f,
  RInv q hist low -> q_first_incorrect q = NULL -> pi_frame (q_pred q) = hlen hist ->
  (if hlen hist =? 0 then NULL else low) <= f ->
  input predict q f = Ok (set_last_requested q f, (pi_val (q_pred q), Predicted)).
Proof.
  intros q hist low f I Hfi Hp Hf. unfold input, set_last_requested.
  rewrite Hfi, Z.eqb_refl. cbn [negb].
  rewrite (tail_frame _ _ _ I).
  assert ((f <? (if hlen hist =? 0 then NULL else low)) = false) as -> by lia.
  rewrite Hp. pose proof (hlen_nonneg hist).
  assert ((hlen hist <? 0) = false) as -> by lia.
  assert ((hlen hist =? NULL) = false) as -> by (unfold NULL; lia).
  reflexivity.
Qed.

End WithPredictor.
