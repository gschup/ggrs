(* Sparse saving, unconditionally: a sparse-saving session in C01's space never fires an assert.
   SessionSparse.v shows that IF advance_frame returns, its requests are executable; this file shows
   that it DOES return - the counterpart of SessionProgress.advance_progress, which covers dense saving.
   The extra invariant SX relates the one saved frame S to the rest of the session:
     last confirmed <= S <= current,  S <= every player's last held frame (or 0),
     and no queue has marked a frame below S as incorrectly predicted
   which is what makes `load S, re-simulate from S` legal whenever a rollback or a forced save needs it. *)
From GGRS Require Import Base Consts Queue QueueProofs QueueTheorems Sync P2P Session SessionProofs SessionSparse SessionProgress.
From GGRS Require Import LiaSetup.
Open Scope Z_scope.

Record SX (p : p2p) (gs : list ghost) : Prop := {
  sx_range : -1 <= s_last_saved (ps_sync p) <= s_current (ps_sync p);
  sx_null : s_last_saved (ps_sync p) = NULL -> s_current (ps_sync p) = 0;
  sx_conf : s_last_confirmed (ps_sync p) <= s_last_saved (ps_sync p);
  sx_held : Forall (fun g : ghost => s_last_saved (ps_sync p) <= Z.max 0 (hlen (fst g) - 1)) gs;
  sx_fi : Forall (fun q => q_first_incorrect q <> NULL -> s_last_saved (ps_sync p) <= q_first_incorrect q) (s_queues (ps_sync p));
}.

Lemma SX_same_sync : forall p p' gs, SX p gs -> ps_sync p' = ps_sync p -> SX p' gs.
Proof. intros p p' gs [A B C D E] H. constructor; rewrite H; assumption. Qed.

Section SparseProgress.
Variable predict : Z -> Z.

(* the only save of a sparse re-simulation is the one of frame mc *)
Lemma resim_last_saved : forall n i p mc o p' o',
  resim_go predict n i p mc o = Ok (p', o') -> ps_sparse p = true ->
  s_last_saved (ps_sync p') =
    (if (s_current (ps_sync p) <=? mc) && (mc <? s_current (ps_sync p) + Z.of_nat n) then mc else s_last_saved (ps_sync p)).
Proof.
  intros n i p mc o p' o' H Hsp. set (c0 := s_current (ps_sync p)). set (S0 := s_last_saved (ps_sync p)).
  assert (HP : ps_sparse p' = true /\ s_current (ps_sync p') = c0 + (i + Z.of_nat n - i) /\
               (c0 <= mc < s_current (ps_sync p') -> s_last_saved (ps_sync p') = mc) /\
               (~ c0 <= mc < s_current (ps_sync p') -> s_last_saved (ps_sync p') = S0)).
  { refine (resim_go_rule predict mc (fun j q _ => ps_sparse q = true /\ s_current (ps_sync q) = c0 + (j - i) /\
              (c0 <= mc < s_current (ps_sync q) -> s_last_saved (ps_sync q) = mc) /\
              (~ c0 <= mc < s_current (ps_sync q) -> s_last_saved (ps_sync q) = S0)) n i _ p o p' o' H _).
    - intros j q oq s1 ins s2 o2 Hj (Hq & Hc & Hin & Hout) E1 E2.
      apply synchronized_inputs_ok in E1. destruct E1 as (qs & _ & ->). unfold resim_saves in E2. rewrite Hq in E2.
      cbn [with_queues s_current] in E2. cbn [with_sync ps_sparse ps_sync advance_frame with_current s_current s_last_saved].
      split; [exact Hq|]. destruct (Z.eqb_spec (s_current (ps_sync q)) mc) as [Em|Em].
      + destruct E2 as (_ & -> & _). cbn [saved with_queues s_current s_last_saved]. repeat split; lia.
      + destruct E2 as (-> & _). cbn [with_queues s_current s_last_saved]. split; [lia|]. split; intros X; [apply Hin|apply Hout]; lia.
    - split; [exact Hsp|]. split; [lia|]. split; [lia|reflexivity]. }
  destruct HP as (_ & Hc & Hin & Hout).
  destruct ((c0 <=? mc) && (mc <? c0 + Z.of_nat n)) eqn:E; [apply Hin|apply Hout]; lia.
Qed.

Lemma adjust_last_saved : forall p fi mc o p' o',
  adjust_gamestate predict p fi mc o = Ok (p', o') -> ps_sparse p = true ->
  s_last_saved (ps_sync p') =
    (if (s_last_saved (ps_sync p) <=? mc) && (mc <? s_current (ps_sync p)) then mc else s_last_saved (ps_sync p)).
Proof.
  intros p fi mc o p' o' H Hsp. apply adjust_gamestate_ok in H. destruct H as (_ & F2 & _ & _ & Er & _).
  unfold frame_to_load in *. rewrite Hsp in *. apply resim_last_saved in Er; [|exact Hsp].
  cbn [with_sync ps_sync reset_all with_queues with_current s_current s_last_saved] in Er. rewrite Er.
  replace (s_last_saved (ps_sync p) + Z.of_nat (Z.to_nat (s_current (ps_sync p) - s_last_saved (ps_sync p)))) with (s_current (ps_sync p)) by lia.
  reflexivity.
Qed.

(* the forced save of check_last_saved_state: nothing, a plain save, or load-and-re-simulate *)
Lemma sparse_check_progress : forall p gs w L cf o,
  ps_sparse p = true -> connected (ps_status p) ->
  length (ps_status p) = length (s_queues (ps_sync p)) ->
  QsI (s_current (ps_sync p)) L (s_queues (ps_sync p)) gs -> all_clean (s_queues (ps_sync p)) ->
  L <= s_last_saved (ps_sync p) -> 0 <= s_last_saved (ps_sync p) <= s_current (ps_sync p) -> -1 <= L ->
  s_current (ps_sync p) <= Z.max 0 L + w -> 1 <= w -> ps_maxpred p = w -> s_maxpred (ps_sync p) = w ->
  cell_frame (ps_sync p) (s_last_saved (ps_sync p)) = s_last_saved (ps_sync p) ->
  L <= cf -> s_last_saved (ps_sync p) <= Z.max 0 cf ->
  exists p1 o1, check_last_saved_state predict p (s_last_saved (ps_sync p)) cf o = Ok (p1, o1) /\
    rolled L p gs p1 /\ s_current (ps_sync p1) = s_current (ps_sync p) /\
    L <= s_last_saved (ps_sync p1) /\ 0 <= s_last_saved (ps_sync p1) <= s_current (ps_sync p) /\
    s_last_saved (ps_sync p1) <= Z.max 0 cf.
Proof.
  intros p gs w L cf o Hsp Hcon Hlen HQ Hcl HLS HS HL Hwin Hw Hmpp Hmp Hcf HLcf HScf.
  set (c := s_current (ps_sync p)) in *. set (S := s_last_saved (ps_sync p)) in *.
  destruct (Z.ltb_spec (c - S) w) as [Hnear|Hfar].
  - exists p, o. split; [|split; [apply rolled_refl; assumption|auto]].
    apply check_last_saved_state_ok. fold c. rewrite Hmpp. assert ((c - S <? w) = true) as -> by lia. reflexivity.
  - destruct (Z.leb_spec c cf) as [Hcc|Hcc].
    + exists (with_sync p (saved (ps_sync p))), (add_req o (RSave c)).
      split; [|split; [apply rolled_sync; [apply rolled_refl; assumption|reflexivity..]|]].
      * apply check_last_saved_state_ok. fold c. rewrite Hmpp. assert ((c - S <? w) = false) as -> by lia.
        assert ((c <=? cf) = true) as -> by lia. cbn [fst with_sync ps_sync saved s_last_saved s_current]. fold c.
        split; [apply save_p2p_ok; fold c; split; [lia|auto]|right; lia].
      * cbn [with_sync ps_sync saved s_current s_last_saved]. fold c. lia.
    + destruct (adjust_progress predict p gs L S cf o Hcon Hlen HQ HL) as (p2 & o2 & Ea & Hr2 & Hc2);
        unfold frame_to_load; rewrite ?Hsp, ?Hmp; fold c S; try lia; try assumption.
      pose proof (adjust_last_saved _ _ _ _ _ _ Ea Hsp) as A8. fold c S in Hc2, A8.
      assert (HS2 : L <= s_last_saved (ps_sync p2) /\ 0 <= s_last_saved (ps_sync p2) <= c /\
                    s_last_saved (ps_sync p2) <= Z.max 0 cf /\ (cf = NULL \/ s_last_saved (ps_sync p2) = Z.min cf c)).
      { rewrite A8. destruct ((S <=? cf) && (cf <? c)) eqn:Eb; [|unfold NULL; lia]. apply andb_true_iff in Eb. lia. }
      exists p2, o2. split.
      { apply check_last_saved_state_ok. fold c. rewrite Hmpp. assert ((c - S <? w) = false) as -> by lia.
        assert ((c <=? cf) = false) as -> by lia. cbn [fst]. rewrite Hc2. split; [exact Ea|apply HS2]. }
      split; [exact Hr2|]. split; [exact Hc2|]. split; [apply HS2|]. split; apply HS2.
Qed.

Lemma Forall_Exists_both {A} (P Q : A -> Prop) : forall l, Forall P l -> Exists Q l -> exists x, P x /\ Q x.
Proof.
  intros l HF HE. apply Exists_exists in HE. destruct HE as (x & Hin & Hq). rewrite Forall_forall in HF. exists x. split; [apply HF; exact Hin|exact Hq].
Qed.

(* the optional rollback at the start of handle_rollback_and_save, sparse saving: load the saved frame and
   re-simulate; the forced save that follows needs the saved frame and the cells of the state in between *)
Lemma sparse_first_progress : forall p gs g w d o cf,
  QSg true w d p gs -> JS w p g -> SX p gs -> 0 <= s_last_saved (ps_sync p) ->
  s_last_confirmed (ps_sync p) <= cf -> s_last_saved (ps_sync p) <= Z.max 0 cf ->
  exists p2 o2, first_rollback predict p cf o = Ok (p2, o2) /\
     rolled (s_last_confirmed (ps_sync p)) p gs p2 /\ s_current (ps_sync p2) = s_current (ps_sync p) /\
     s_last_confirmed (ps_sync p) <= s_last_saved (ps_sync p2) /\ 0 <= s_last_saved (ps_sync p2) <= s_current (ps_sync p) /\
     s_last_saved (ps_sync p2) <= Z.max 0 cf /\
     exists g2, gframe g2 = s_current (ps_sync p) /\ SparseCells w (ps_sync p2) g2.
Proof.
  intros p gs g w d o cf HQS HJS [X1 X2 X3 X4 X5] HS0 HLcf HScf.
  destruct (qs_w _ _ _ _ HQS) as (_ & _ & Hw3). destruct (qs_mode _ _ _ _ HQS) as (_ & Hsp & Hdf).
  destruct (qs_n _ _ _ _ HQS) as (_ & _ & _ & Hn4). destruct (qs_frames _ _ _ _ HQS) as (HfL & Hfc & Hfw).
  pose proof (QsI_length _ _ _ _ (qs_qs _ _ _ _ HQS)) as Hlq.
  pose proof HJS as [Jw Jmp Jsp Jfr Jcur Jcells]. rewrite (Z.max_r 1 w) in Hfw by lia.
  set (c := s_current (ps_sync p)) in *. set (L := s_last_confirmed (ps_sync p)) in *. set (S := s_last_saved (ps_sync p)) in *.
  destruct (first_rollback_progress predict p gs cf o (qs_conn _ _ _ _ HQS) ltac:(lia) Hdf (qs_qs _ _ _ _ HQS) ltac:(lia))
    as (p2 & o2 & E2 & Hr2 & Hc2).
  { intros fi Efi Hfi. unfold frame_to_load. rewrite Hsp, Hw3. fold c L S in Hfi |- *.
    (* the flagged frame is some queue's, hence not before the saved frame *)
    assert (HSfi : S <= fi).
    { destruct (csc_fold_min (s_queues (ps_sync p)) NULL) as ([X|(q & I1 & I2 & I3)] & _); rewrite <- Efi in *; [unfold NULL in *; lia|].
      rewrite Forall_forall in X5. rewrite <- I2. apply X5; [exact I1|congruence]. }
    repeat (split; [lia|]). exact (SparseCells_cell _ _ _ Jcells HS0). }
  exists p2, o2. split; [exact E2|]. split; [exact Hr2|]. split; [exact Hc2|].
  destruct (first_rollback_exec predict p cf o p2 o2 g w c E2 ltac:(lia) Jfr ltac:(lia)) as (R & g2 & hi2 & _ & G2 & G3 & G4 & G5 & _).
  { rewrite Hsp. eapply Cells_weaken; [apply (Cells_sparse w 0); [exact Jcur|exact Jcells]|reflexivity]. }
  assert (HS2 : L <= s_last_saved (ps_sync p2) /\ 0 <= s_last_saved (ps_sync p2) <= c /\ s_last_saved (ps_sync p2) <= Z.max 0 cf).
  { apply first_rollback_inv in E2. destruct E2 as [(_ & -> & _)|(_ & p0 & Ea & ->)]; [fold S; lia|].
    cbn [with_disc_frame ps_sync]. rewrite (adjust_last_saved _ _ _ _ _ _ Ea Hsp). fold c S.
    destruct ((S <=? cf) && (cf <? c)) eqn:Eb; [apply andb_true_iff in Eb|]; lia. }
  split; [apply HS2|]. split; [apply HS2|]. split; [apply HS2|].
  exists g2. split; [exact G2|]. rewrite Hsp in G5. apply (Cells_sparse w (Z.max 0 (c - w))); [lia|].
  rewrite G3. eapply Cells_weaken; [exact G5|lia].
Qed.

Lemma sparse_rollback : forall p gs g w d o cf,
  QSg true w d p gs -> JS w p g -> SX p gs -> 0 <= s_last_saved (ps_sync p) ->
  confirmed_frame p = Ok cf -> s_last_confirmed (ps_sync p) <= cf ->
  Forall (fun c => cs_last c < I32MAX) (ps_status p) ->
  exists p1 o1, HRpost predict p gs cf o p1 o1 /\
    0 <= s_last_saved (ps_sync p1) <= s_current (ps_sync p) /\ s_last_saved (ps_sync p1) <= Z.max 0 cf /\
    (* the state between the optional rollback and the forced save *)
    exists p2 o2, first_rollback predict p cf o = Ok (p2, o2) /\
      check_last_saved_state predict p2 (s_last_saved (ps_sync p2)) cf o2 = Ok (p1, o1) /\
      ps_sparse p2 = true /\ ps_status p2 = ps_status p /\ s_current (ps_sync p2) = s_current (ps_sync p) /\
      QsI (s_current (ps_sync p)) (s_last_confirmed (ps_sync p)) (s_queues (ps_sync p2)) gs /\
      all_clean (s_queues (ps_sync p2)) /\ s_last_confirmed (ps_sync p) <= s_last_saved (ps_sync p2).
Proof.
  intros p gs g w d o cf HQS HJS HSX HS0 Ecf HLcf Hbnd.
  destruct (qs_w _ _ _ _ HQS) as (_ & Hw2 & Hw3). destruct (qs_mode _ _ _ _ HQS) as (_ & Hsp & _).
  destruct (qs_frames _ _ _ _ HQS) as (HfL & Hfc & Hfw). pose proof (js_w _ _ _ HJS) as Jw. rewrite (Z.max_r 1 w) in Hfw by lia.
  set (c := s_current (ps_sync p)) in *. set (L := s_last_confirmed (ps_sync p)) in *.
  assert (HScf : s_last_saved (ps_sync p) <= Z.max 0 cf).
  { destruct (confirmed_frame_bounds _ w d p gs HQS Hbnd) as (cf' & Ecf' & _ & _ & Hex). rewrite Ecf in Ecf'. injection Ecf' as <-.
    destruct (Forall_Exists_both _ _ _ (sx_held _ _ HSX) Hex) as (g0 & G1 & G2). lia. }
  destruct (sparse_first_progress p gs g w d o cf HQS HJS HSX HS0 HLcf HScf)
    as (p2 & o2 & E2 & Hr2 & Hc2 & HLS2 & HS2 & HScf2 & g2 & Hgf2 & Hcells2).
  pose proof Hr2 as [Hshape2 HQ2 Hcl2 _ _ Hm2 _]. fold c L in Hr2, HQ2, Hc2, HLS2, HS2. rewrite Hc2 in HQ2.
  assert (Hsp2 : ps_sparse p2 = true) by (rewrite Hshape2; exact Hsp).
  assert (Hmpp2 : ps_maxpred p2 = w) by (rewrite Hshape2; exact Hw2).
  assert (Hst2 : ps_status p2 = ps_status p) by (rewrite Hshape2; reflexivity).
  destruct (sparse_check_progress p2 gs w L cf o2 Hsp2) as (p1 & o1 & E1 & Hr1 & Hc1 & HLS1 & HS1 & HScf1);
    rewrite ?Hc2, ?Hst2; try assumption; try lia.
  { exact (qs_conn _ _ _ _ HQS). }
  { destruct (qs_n _ _ _ _ HQS) as (_ & _ & _ & X). rewrite X. symmetry. exact (QsI_length _ _ _ _ HQ2). }
  { exact (SparseCells_cell _ _ _ Hcells2 ltac:(lia)). }
  rewrite Hc2 in Hc1, HS1.
  assert (Ehr : handle_rollback_and_save predict p cf o = Ok (p1, o1)).
  { rewrite handle_rollback_and_save_eq, E2. cbn [res_bind]. rewrite Hsp2. exact E1. }
  exists p1, o1. split; [|split; [exact HS1|split; [exact HScf1|exists p2, o2; fold c L; auto 10]]].
  apply HRpost_intro; [exact Ehr|eapply rolled_trans; [exact Hr2|exact Hr1|lia]|exact Hc1|intros _; exact HLS1].
Qed.

End SparseProgress.

Lemma fi_above_conf : forall c L qs gs, QsI c L qs gs -> Forall (fun q => q_first_incorrect q <> NULL -> L < q_first_incorrect q) qs.
Proof.
  intros c L qs gs H. induction H as [|q g qs gs Hq HQ IH]; constructor; [|exact IH].
  intros Hn. destruct (qi_p4 _ _ _ _ _ Hq Hn) as (_ & (X & _) & _). exact X.
Qed.

Lemma all_clean_fi : forall S qs, all_clean qs -> Forall (fun q => q_first_incorrect q <> NULL -> S <= q_first_incorrect q) qs.
Proof. intros S qs H. eapply Forall_impl; [|exact H]. cbv beta. intros q Hq Hn. congruence. Qed.

Lemma sparse_first_save : forall p gs g w d p1 o1, QSg true w d p gs -> JS w p g -> SX p gs ->
  first_save p = Ok (p1, o1) ->
  exists g1, JS w p1 g1 /\ SX p1 gs /\ 0 <= s_last_saved (ps_sync p1).
Proof.
  intros p gs g w d p1 o1 HQS HJS [X1 X2 X3 X4 X5] E. apply JS_JR in HJS. destruct HJS as (HG & Hsp).
  destruct (first_save_exec p p1 o1 g w E HG) as (_ & g1 & _ & HG1 & Hsp1 & _).
  exists g1. split; [apply JS_JR; split; [exact HG1|congruence]|].
  destruct (first_save_progress true w d p gs HQS (jr_w _ _ _ HG)) as (p1' & o1' & E' & _ & Hcase).
  rewrite E in E'. injection E' as <- <-. destruct (qs_frames _ _ _ _ HQS) as (HfL & _).
  destruct Hcase as [(Ec & ->)|(Ec & ->)].
  - cbn [with_sync ps_sync saved s_last_saved]. split; [|lia].
    constructor; cbn [with_sync ps_sync saved s_last_saved s_current s_last_confirmed s_queues].
    + lia.
    + unfold NULL. lia.
    + lia.
    + apply Forall_forall. intros g0 _. lia.
    + eapply Forall_impl; [|exact (fi_above_conf _ _ _ _ (qs_qs _ _ _ _ HQS))]. cbv beta. intros q Hq Hnn. specialize (Hq Hnn). lia.
  - split; [constructor; assumption|].
    destruct (Z.eq_dec (s_last_saved (ps_sync p)) NULL) as [En|En]; [specialize (X2 En); lia|unfold NULL in En; lia].
Qed.

Section SparseRun.
Variable predict : Z -> Z.

(* one advance_frame call of a sparse-saving session in C01's space never fails, and re-establishes the invariants *)
Lemma sparse_advance_progress : forall p gs g w d,
  QSg true w d p gs -> JS w p g -> SX p gs -> Forall (fun c => cs_last c < I32MAX) (ps_status p) ->
  exists p' o r gs' g', advance predict p = Ok (p', o, r) /\ QSg true w d p' gs' /\
    exec w g (o_requests o) = Some g' /\ JS w p' g' /\ SX p' gs'.
Proof.
  intros p gs g w d HQS HJS HSX Hbnd.
  assert (Hgoal : exists p' o r gs', advance predict p = Ok (p', o, r) /\ QSg true w d p' gs' /\ SX p' gs').
  { destruct (advance_progress_g predict true p gs w d
                (fun p1 cf pr => 0 <= s_last_saved (ps_sync pr) <= s_current (ps_sync p1) /\ s_last_saved (ps_sync pr) <= Z.max 0 cf)
                HQS (js_w _ _ _ HJS) Hbnd)
      as (p' & o & r & gs' & E & HQS' & [(-> & ->)|(p1 & cf & pr & (HSr & HScf) & Hc1 & Hcfg & Hcl3 & Hsv3 & Hgrow & HL3 & Hc3)]).
    - intros p1 o1 cf E1 HQS1 Hst1 Ecf HLcf.
      destruct (sparse_first_save p gs g w d p1 o1 HQS HJS HSX E1) as (g1 & HJS1 & HSX1 & HS1).
      destruct (sparse_rollback predict p1 gs g1 w d o1 cf HQS1 HJS1 HSX1 HS1 Ecf HLcf ltac:(rewrite Hst1; exact Hbnd))
        as (pr & orr & HR & HSr & HScf & _). exists pr, orr. auto.
    - exists p, o, r, gs. auto.
    - exists p', o, r, gs'. split; [exact E|]. split; [exact HQS'|]. rewrite Hc1 in HSr.
      constructor; rewrite ?Hsv3, ?HL3.
      + lia.
      + unfold NULL. lia.
      + lia.
      + apply Forall_forall. intros g3 Hg3. apply In_nth_error in Hg3. destruct Hg3 as (h & Hh).
        destruct (Hgrow h g3 Hh) as (g0 & G1 & G2). rewrite Forall_forall in Hcfg. pose proof (Hcfg g0 (nth_error_In _ _ G1)). lia.
      + apply all_clean_fi. exact Hcl3. }
  destruct Hgoal as (p' & o & r & gs' & E & HQS' & HSX').
  apply JS_JR in HJS. destruct HJS as (HG & Hsp).
  destruct (advance_roll_exec predict p p' o r g w E HG) as (g' & Ex & HG' & Hsp' & _).
  exists p', o, r, gs', g'. split; [exact E|]. split; [exact HQS'|]. split; [exact Ex|].
  split; [apply JS_JR; split; [exact HG'|congruence]|exact HSX'].
Qed.

Lemma sparse_step_in_space : forall p gs g w d o,
  QSg true w d p gs -> JS w p g -> SX p gs -> op_ok p o = true ->
  exists s gs' g', sstep predict p o = Ok s /\ QSg true w d (sr_state s) gs' /\
    exec w g (o_requests (sr_out s)) = Some g' /\ JS w (sr_state s) g' /\ SX (sr_state s) gs'.
Proof.
  intros p gs g w d o HQS HJS HSX Hok.
  assert (Hgoal : exists s gs', sstep predict p o = Ok s /\ QSg true w d (sr_state s) gs' /\ SX (sr_state s) gs').
  { destruct (sop_advance_dec o) as [->|Hadv].
    { destruct (sparse_advance_progress p gs g w d HQS HJS HSX (op_ok_advance_weak _ Hok)) as (p' & o & r & gs' & g' & E & HQ' & _ & _ & HX').
      cbn [sstep]. rewrite E. exists (mksr p' o r), gs'. auto. }
    { destruct (other_ops_progress predict _ w d p gs o HQS Hok Hadv) as (s & gs' & Es & HQ' & _ & Hsync).
      exists s, gs'. split; [exact Es|]. split; [exact HQ'|].
      destruct Hsync as [(-> & Hs)|(pl & v & q & hist & low & q' & Eq & Eg & -> & Hqs' & F' & _ & _ & Hc' & HL' & Hsv')]; [eapply SX_same_sync; eassumption|].
      (* an arrived input: its history grows, and a misprediction it reveals is at its own frame *)
      destruct HSX as [X1 X2 X3 X4 X5]. constructor; rewrite ?Hsv', ?Hc', ?HL', ?Hqs'; try assumption.
      - rewrite Forall_forall in X4. pose proof (X4 _ (nth_error_In _ _ Eg)) as Xh. cbn [fst] in Xh.
        apply Forall_updz; [apply Forall_forall; exact X4|]. cbn [fst]. rewrite hlen_app. lia.
      - rewrite Forall_forall in X5. pose proof (X5 _ (nth_error_In _ _ Eq)) as Xq.
        rewrite Forall_forall in X4. pose proof (X4 _ (nth_error_In _ _ Eg)) as Xh. cbn [fst] in Xh.
        apply Forall_updz; [apply Forall_forall; exact X5|]. rewrite F'. unfold fi_after.
        pose proof (hlen_nonneg hist).
        destruct (pi_frame (q_pred q) =? NULL); [exact Xq|].
        destruct ((q_first_incorrect q =? NULL) && negb (pi_val (q_pred q) =? v)); [intros _; lia|exact Xq]. } }
  destruct Hgoal as (s & gs' & Es & HQ' & HX').
  destruct (sparse_sstep_exec predict p o s g w Es HJS) as (g' & Ex & HJ' & _).
  exists s, gs', g'. auto.
Qed.

(* no modelled assert fires on any run of a sparse-saving session inside the space, and the request
   lists of the whole run are executable by the game, one after the other *)
Theorem sparse_run_in_space : forall ops p gs g w d,
  QSg true w d p gs -> JS w p g -> SX p gs ->
  srun_in predict p ops = Err \/
  exists p' outs gs' g', srun_in predict p ops = Ok (p', outs) /\ srun predict p ops = Ok (p', outs) /\
    exec_outs w g outs = Some g' /\ QSg true w d p' gs' /\ JS w p' g' /\ SX p' gs'.
Proof.
  intros ops p gs g w d HQS HJS HSX.
  refine (srun_in_preserves predict (fun p gs g => QSg true w d p gs /\ JS w p g /\ SX p gs) w _ ops p gs g (conj HQS (conj HJS HSX))).
  intros p0 gs0 g0 o (HQ0 & HJ0 & HX0) Hok.
  destruct (sparse_step_in_space p0 gs0 g0 w d o HQ0 HJ0 HX0 Hok) as (s & gs' & g' & A & B & C & D & E). exists s, gs', g'. auto.
Qed.

End SparseRun.

Lemma SX_start : forall n w d kinds eps nspec,
  SX (session_start n w true d kinds eps nspec) (repeat ([], 0) (Z.to_nat n)).
Proof.
  intros n w d kinds eps nspec. unfold session_start, p2p_new, sync_new.
  constructor; cbn [with_running with_queues ps_sync s_last_saved s_current s_last_confirmed s_queues].
  - unfold NULL. lia.
  - reflexivity.
  - lia.
  - apply Forall_forall. intros g Hg. apply repeat_spec in Hg. subst g. unfold NULL. cbn. lia.
  - apply Forall_forall. intros q Hq. apply in_map_iff in Hq. destruct Hq as ([h q0] & <- & Hin).
    apply in_combine_r in Hin. apply repeat_spec in Hin. subst q0.
    destruct (nth_error kinds (Z.to_nat h)) as [[| |]|]; cbn; intros X; congruence.
Qed.
