(* Safety of one endpoint, about the model Endpoint.v of src/network/protocol.rs, current code: what
   handle_message does with malformed and foreign packets (C08), the sizes of the endpoint's buffers (C18), and what
   the timers push while nothing is accepted (C07).  The theorems are collected in props/C08.v, C18.v, C07.v. *)
From Coq Require Import ZArith List Bool.
From GGRS Require Import Base Consts TimeSync Codec CodecProofs Endpoint EndpointSpec EndpointProofs.
From GGRS Require Import LiaSetup.
Open Scope Z_scope.

Lemma eps_cap_ok : (MAX_DECODED_LEN < 2^61)%N.
Proof. vm_compute. reflexivity. Qed.

(* what handle_message does to an accepted packet before it looks at the body:
   last_recv_time := now, and the NetworkResumed bookkeeping *)
Definition eps_touch (now : Z) (s : ep) : ep :=
  let s1 := set_last_recv_time now s in
  if u_notify_sent s1 && pstate_eqb (u_state s1) PRunning && negb (u_event_sent s1)
  then push_event EvNetworkResumed (set_notify_sent false s1) else s1.

Lemma eps_touch_nf : forall now s, eps_touch now s =
  set_event_queue (u_event_queue s ++ resumed_pre s)
    (set_notify_sent (if resumed_cond s then false else u_notify_sent s) (set_last_recv_time now s)).
Proof.
  intros now s. unfold eps_touch, resumed_pre. cbv zeta. fs. fold (resumed_cond s).
  destruct (resumed_cond s); [reflexivity|]. rewrite app_nil_r, (ep_eta s). exact eq_refl.
Qed.

Lemma eps_handle_unfold : forall dbg now nonce m s,
  handle_message dbg now nonce m s =
  if negb (passes_filters s m) then Ok s
  else
    let s2 := eps_touch now s in
    match m_body m with
    | SyncRequest n => Ok (queue_message now (SyncReply n) s2)
    | SyncReply n => on_sync_reply dbg now nonce (m_magic m) n s2
    | Input st dr sf af bytes => on_input dbg now st dr sf af bytes s2
    | InputAck f => Ok (pop_pending_output f s2)
    | QualityReport adv ping => Ok (queue_message now (QualityReply ping) (set_remote_adv adv s2))
    | QualityReply pong => Ok (set_rtt (ts_round_trip_time now pong) s2)
    | ChecksumReport c f => on_checksum_report dbg c f s2
    | KeepAlive => Ok s2
    end.
Proof. reflexivity. Qed.

Definition eps_only_touched (now : Z) (s s' : ep) : Prop :=
  u_num_players s' = u_num_players s /\ u_handles s' = u_handles s /\
  u_send_queue s' = u_send_queue s /\ u_state s' = u_state s /\
  u_sync_remaining s' = u_sync_remaining s /\ u_sync_requests s' = u_sync_requests s /\
  u_last_quality_report s' = u_last_quality_report s /\ u_last_input_recv s' = u_last_input_recv s /\
  u_event_sent s' = u_event_sent s /\ u_timeout s' = u_timeout s /\ u_notify_start s' = u_notify_start s /\
  u_shutdown_timeout s' = u_shutdown_timeout s /\ u_fps s' = u_fps s /\ u_magic s' = u_magic s /\
  u_remote_magic s' = u_remote_magic s /\ u_peer_status s' = u_peer_status s /\
  u_pending_output s' = u_pending_output s /\ u_last_acked s' = u_last_acked s /\
  u_max_prediction s' = u_max_prediction s /\ u_recv_inputs s' = u_recv_inputs s /\
  u_time_sync s' = u_time_sync s /\ u_local_adv s' = u_local_adv s /\ u_remote_adv s' = u_remote_adv s /\
  u_stats_start s' = u_stats_start s /\ u_rtt s' = u_rtt s /\ u_last_send_time s' = u_last_send_time s /\
  u_last_sync_request_time s' = u_last_sync_request_time s /\
  u_pending_checksums s' = u_pending_checksums s /\ u_desync s' = u_desync s /\
  (* the three fields that may change *)
  u_last_recv_time s' = now /\
  u_notify_sent s' = (if resumed_cond s then false else u_notify_sent s) /\
  u_event_queue s' = u_event_queue s ++ resumed_pre s.

Lemma eps_touch_num_players : forall now s, u_num_players (eps_touch now s) = u_num_players s.
Proof. intros now s. rewrite eps_touch_nf. reflexivity. Qed.

Lemma eps_last_recv_frame_ext : forall s s', u_recv_inputs s' = u_recv_inputs s -> last_recv_frame s' = last_recv_frame s.
Proof. intros s s' H. unfold last_recv_frame. rewrite H. reflexivity. Qed.

Lemma eps_filtered_dropped : forall dbg now nonce m s, passes_filters s m = false ->
  handle_message dbg now nonce m s = Ok s /\ step dbg (OMessage now nonce m) s = Ok (s, []).
Proof.
  intros dbg now nonce m s Hp.
  assert (E : handle_message dbg now nonce m s = Ok s) by (rewrite eps_handle_unfold, Hp; reflexivity).
  split; [exact E|]. unfold step. cbn [step_gen].
  change (handle_message_gen current_code) with handle_message. rewrite E. reflexivity.
Qed.

(* (c) wrong number of connection statuses (without a disconnect request) or negative start frame *)
Lemma eps_bad_header_dropped : forall dbg now nonce m st dr sf af bytes s,
  m_body m = Input st dr sf af bytes ->
  (dr = false /\ Z.of_nat (length st) <> u_num_players s) \/ sf < 0 ->
  handle_message dbg now nonce m s = Ok (if passes_filters s m then eps_touch now s else s).
Proof.
  intros dbg now nonce m st dr sf af bytes s Hb Hbad. rewrite eps_handle_unfold, Hb.
  destruct (passes_filters s m); cbn [negb]; [|reflexivity]. cbv zeta.
  unfold on_input. rewrite eps_touch_num_players.
  destruct Hbad as [[-> Hl]|Hs].
  - assert ((Z.of_nat (length st) =? u_num_players s) = false) as -> by lia. reflexivity.
  - destruct (negb dr && negb (Z.of_nat (length st) =? u_num_players s)); [reflexivity|].
    assert ((sf <? 0) = true) as -> by lia. reflexivity.
Qed.

Definition eps_keys {A : Type} (l : list (Z * A)) : list Z := map fst l.

Definition eps_lrf (ri : list ibytes) : Z :=
  match ri with [] => NULL | (k, _) :: r => fold_left Z.max (map fst r) k end.

Lemma eps_lrf_eq : forall s, last_recv_frame s = eps_lrf (u_recv_inputs s).
Proof. reflexivity. Qed.

Lemma eps_fold_max_spec : forall l k,
  (fold_left Z.max l k = k \/ In (fold_left Z.max l k) l) /\
  k <= fold_left Z.max l k /\ Forall (fun y => y <= fold_left Z.max l k) l.
Proof.
  induction l as [|x l IH]; intro k; cbn [fold_left].
  - split; [left; reflexivity|]. split; [lia|constructor].
  - destruct (IH (Z.max k x)) as (A & B & C). split; [|split].
    + destruct A as [A|A]; [|right; right; exact A].
      rewrite A. destruct (Z.max_spec k x) as [[_ E]|[_ E]]; rewrite E; [right; left; reflexivity|left; reflexivity].
    + lia.
    + constructor; [lia|exact C].
Qed.

Definition eps_is_max (x : Z) (l : list Z) : Prop := In x l /\ Forall (fun y => y <= x) l.

Lemma eps_is_max_unique : forall x y l, eps_is_max x l -> eps_is_max y l -> x = y.
Proof.
  intros x y l (A & B) (C & D). rewrite Forall_forall in B, D. specialize (B y C). specialize (D x A). lia.
Qed.

Lemma eps_lrf_is_max : forall ri, ri <> [] -> eps_is_max (eps_lrf ri) (eps_keys ri).
Proof.
  intros [|[k v] r] H; [congruence|]. unfold eps_lrf, eps_keys. cbn [map fst].
  destruct (eps_fold_max_spec (map fst r) k) as (A & B & C). split.
  - destruct A as [A|A]; [left; symmetry; exact A|right; exact A].
  - constructor; assumption.
Qed.

Lemma eps_in_le_lrf : forall s k v, In (k, v) (u_recv_inputs s) -> k <= last_recv_frame s.
Proof.
  intros s k v X. assert (Hne : u_recv_inputs s <> []) by (intro N; rewrite N in X; destruct X).
  destruct (eps_lrf_is_max _ Hne) as (_ & F). rewrite Forall_forall in F. exact (F k (in_map fst _ _ X)).
Qed.

Lemma eps_alookup_in : forall {A : Type} k (v : A) l, alookup k l = Some v -> In (k, v) l.
Proof.
  induction l as [|[k' v'] l IH]; cbn [alookup]; intro H; [discriminate|].
  destruct (k =? k') eqn:E.
  - apply Z.eqb_eq in E. inversion H; subst. left. reflexivity.
  - right. auto.
Qed.

Lemma eps_alookup_none : forall {A : Type} k (l : list (Z * A)), alookup k l = None <-> ~ In k (eps_keys l).
Proof.
  induction l as [|[k' v'] l IH]; cbn [alookup eps_keys map fst In].
  - split; [intros _ []|reflexivity].
  - destruct (k =? k') eqn:E.
    + apply Z.eqb_eq in E. subst. split; [discriminate|intro H; exfalso; apply H; left; reflexivity].
    + apply Z.eqb_neq in E. rewrite IH. unfold eps_keys. split; [intros H [X|X]; [congruence|auto]|intros H X; apply H; right; exact X].
Qed.

Lemma eps_alookup_nodup : forall {A : Type} k (v : A) l,
  NoDup (eps_keys l) -> In (k, v) l -> alookup k l = Some v.
Proof.
  induction l as [|[k' v'] l IH]; cbn [alookup eps_keys map fst]; intros Hn Hi; [destruct Hi|].
  inversion Hn as [|? ? Hk Hn']; subst. destruct Hi as [Hi|Hi].
  - inversion Hi; subst. rewrite Z.eqb_refl. reflexivity.
  - destruct (k =? k') eqn:E; [|auto].
    apply Z.eqb_eq in E. subst. exfalso. apply Hk. change k' with (fst (k', v)). apply in_map. exact Hi.
Qed.

Lemma eps_in_aremove : forall {A : Type} k k' (v : A) l, In (k, v) (aremove k' l) <-> In (k, v) l /\ k <> k'.
Proof.
  intros. unfold aremove. rewrite filter_In. cbn [fst]. split; intros [X Y]; split; try assumption; lia.
Qed.

Lemma eps_keys_aremove : forall {A : Type} k k' (l : list (Z * A)),
  In k (eps_keys (aremove k' l)) <-> In k (eps_keys l) /\ k <> k'.
Proof.
  intros. unfold eps_keys. rewrite !in_map_iff. split.
  - intros ([a b] & E & H). cbn in E. subst a. apply eps_in_aremove in H. destruct H as [H1 H2].
    split; [exists (k, b); auto|exact H2].
  - intros (([a b] & E & H) & N). cbn in E. subst a. exists (k, b). split; [reflexivity|]. apply eps_in_aremove. auto.
Qed.

Lemma eps_nodup_filter_keys : forall {A : Type} (f : Z * A -> bool) l,
  NoDup (eps_keys l) -> NoDup (eps_keys (filter f l)).
Proof.
  induction l as [|x l IH]; cbn [filter eps_keys map]; intro H; [constructor|].
  inversion H as [|? ? Hk Hn]; subst. destruct (f x); [|apply IH; exact Hn].
  cbn [eps_keys map]. constructor; [|apply IH; exact Hn].
  intro X. apply Hk. unfold eps_keys in X. apply in_map_iff in X. destruct X as (y & E & Hy).
  apply filter_In in Hy. rewrite <- E. apply in_map. tauto.
Qed.

Lemma eps_nodup_ainsert : forall {A : Type} k (v : A) l, NoDup (eps_keys l) -> NoDup (eps_keys (ainsert k v l)).
Proof.
  intros A k v l H. unfold ainsert. cbn [eps_keys map fst]. constructor.
  - intro X. apply (eps_keys_aremove k k l) in X. tauto.
  - apply eps_nodup_filter_keys. exact H.
Qed.

Lemma eps_keys_ainsert : forall {A : Type} k k' (v : A) l,
  In k (eps_keys (ainsert k' v l)) <-> k = k' \/ In k (eps_keys l).
Proof.
  intros. unfold ainsert. cbn [eps_keys map fst In]. fold (eps_keys (aremove k' l)). rewrite eps_keys_aremove.
  destruct (Z.eq_dec k k'); split; intro H; try tauto; intuition congruence.
Qed.

Lemma eps_in_ainsert : forall {A : Type} k k' (v v' : A) l,
  In (k, v) (ainsert k' v' l) -> (k = k' /\ v = v') \/ In (k, v) l.
Proof.
  intros A k k' v v' l [H|H]; [inversion H; auto|]. apply eps_in_aremove in H. tauto.
Qed.

Lemma eps_alookup_ainsert : forall {A : Type} k k' (v : A) l,
  alookup k (ainsert k' v l) = if k =? k' then Some v else alookup k l.
Proof.
  intros. unfold ainsert. cbn [alookup]. destruct (k =? k') eqn:E; [reflexivity|].
  unfold aremove. induction l as [|[a b] l IH]; cbn [filter alookup fst]; [reflexivity|].
  destruct (a =? k') eqn:E2; cbn [negb alookup].
  - apply Z.eqb_eq in E2. subst a. rewrite E. exact IH.
  - rewrite IH. reflexivity.
Qed.

Lemma eps_alookup_retain : forall {A : Type} k lo (l : list (Z * A)),
  alookup k (aretain_ge lo l) = if lo <=? k then alookup k l else None.
Proof.
  intros. unfold aretain_ge. induction l as [|[a b] l IH]; cbn [filter alookup fst].
  - destruct (lo <=? k); reflexivity.
  - destruct (lo <=? a) eqn:E1; cbn [alookup]; destruct (k =? a) eqn:E2; try exact IH.
    + apply Z.eqb_eq in E2. subst a. rewrite E1. reflexivity.
    + apply Z.eqb_eq in E2. subst a. rewrite E1 in IH. rewrite E1. exact IH.
Qed.

Lemma eps_keys_retain : forall {A : Type} k lo (l : list (Z * A)),
  In k (eps_keys (aretain_ge lo l)) <-> In k (eps_keys l) /\ lo <= k.
Proof.
  intros. unfold eps_keys, aretain_ge. rewrite !in_map_iff. split.
  - intros ([a b] & E & H). cbn in E. subst a. apply filter_In in H. cbn [fst] in H. destruct H as [H1 H2].
    split; [exists (k, b); auto|lia].
  - intros (([a b] & E & H) & N). cbn in E. subst a. exists (k, b). split; [reflexivity|].
    apply filter_In. cbn [fst]. split; [exact H|lia].
Qed.

Lemma eps_lrf_ainsert_new : forall k v ri, eps_lrf ri < k -> eps_lrf (ainsert k v ri) = k.
Proof.
  intros k v ri H.
  assert (M : eps_is_max k (eps_keys (ainsert k v ri))).
  { split; [apply eps_keys_ainsert; left; reflexivity|].
    apply Forall_forall. intros y Hy. apply eps_keys_ainsert in Hy. destruct Hy as [->|Hy]; [lia|].
    destruct ri as [|x r]; [destruct Hy|].
    destruct (eps_lrf_is_max (x :: r) ltac:(discriminate)) as (_ & F). rewrite Forall_forall in F.
    specialize (F y Hy). lia. }
  eapply eps_is_max_unique; [|exact M]. apply eps_lrf_is_max. discriminate.
Qed.

Lemma eps_lrf_retain : forall lo ri, ri <> [] -> lo <= eps_lrf ri ->
  aretain_ge lo ri <> [] /\ eps_lrf (aretain_ge lo ri) = eps_lrf ri.
Proof.
  intros lo ri Hne Hlo. destruct (eps_lrf_is_max ri Hne) as (A & B).
  assert (In (eps_lrf ri) (eps_keys (aretain_ge lo ri))) as Hin by (apply eps_keys_retain; auto).
  assert (aretain_ge lo ri <> []) as Hne' by (intro E; rewrite E in Hin; destruct Hin).
  split; [exact Hne'|].
  eapply eps_is_max_unique; [apply eps_lrf_is_max; exact Hne'|]. split; [exact Hin|].
  apply Forall_forall. intros y Hy. apply eps_keys_retain in Hy. rewrite Forall_forall in B. apply B. tauto.
Qed.

(* pigeonhole: distinct integers of an interval *)
Lemma eps_nodup_range_length : forall (l : list Z) a b,
  NoDup l -> (forall x, In x l -> a <= x <= b) -> Z.of_nat (length l) <= Z.max 0 (b - a + 1).
Proof.
  intros l a b Hn Hr.
  set (l' := map (fun i => a + Z.of_nat i) (seq 0 (Z.to_nat (b - a + 1)))).
  assert (Hincl : incl l l').
  { intros x Hx. specialize (Hr x Hx). unfold l'. apply in_map_iff. exists (Z.to_nat (x - a)). split; [lia|].
    apply in_seq. lia. }
  pose proof (NoDup_incl_length Hn Hincl) as Hl. unfold l' in Hl. rewrite map_length, seq_length in Hl. lia.
Qed.

Lemma eps_keys_length : forall {A : Type} (l : list (Z * A)), length (eps_keys l) = length l.
Proof. intros. unfold eps_keys. apply map_length. Qed.

Lemma eps_filter_length : forall {A : Type} (f : A -> bool) l, (length (filter f l) <= length l)%nat.
Proof. induction l as [|x l IH]; cbn [filter length]; [lia|]. destruct (f x); cbn [length]; lia. Qed.

Lemma eps_aremove_length : forall {A : Type} k (l : list (Z * A)), (length (aremove k l) <= length l)%nat.
Proof. intros. unfold aremove. apply eps_filter_length. Qed.

(* every field but recv_inputs and event_queue *)
Definition eps_others (s : ep) :=
  (u_num_players s, u_handles s, u_send_queue s, u_state s, u_sync_remaining s, u_sync_requests s,
   u_last_quality_report s, u_last_input_recv s, u_notify_sent s, u_event_sent s, u_timeout s,
   u_notify_start s, u_shutdown_timeout s, u_fps s, u_magic s, u_remote_magic s, u_peer_status s,
   u_pending_output s, u_last_acked s, u_max_prediction s, u_time_sync s, u_local_adv s, u_remote_adv s,
   u_stats_start s, u_rtt s, u_last_send_time s, u_last_sync_request_time s, u_last_recv_time s,
   u_pending_checksums s, u_desync s).

(* the part of on_input between the two header checks and the lookup of the reference frame:
   pop_pending_output(ack_frame), then the disconnect request or the status merge *)
Definition eps_header (st : list status) (dr : bool) (af : Z) (t : ep) : res ep :=
  let s1 := pop_pending_output af t in
  if dr then
    Ok (if negb (pstate_eqb (u_state s1) PDisconnected) && negb (u_event_sent s1)
        then set_event_sent true (push_event EvDisconnected s1) else s1)
  else
    match merge_status (u_peer_status s1) st with
    | Ok ps => Ok (set_peer_status ps s1)
    | Err => Err
    | Panic => Panic
    end.

(* the rest of on_input *)
Definition eps_body (dbg : bool) (now sf : Z) (bytes : list N) (s2 : ep) : res ep :=
  let decode_frame := if last_recv_frame s2 =? NULL then NULL else sf - 1 in
  match alookup decode_frame (u_recv_inputs s2) with
  | Some ref =>
    let s3 := set_last_input_recv now s2 in
    match Codec.decode dbg ref bytes with
    | Ok inputs =>
      match accept_inputs dbg sf 0 inputs s3 with
      | Ok (true, s4) =>
        let s5 := send_input_ack now s4 in
        let lrf := last_recv_frame s5 in
        match ts_i32_arith dbg (2 * ts_wrap_i32 (u_max_prediction s5)) with
        | Ok w =>
          match ts_i32_arith dbg (lrf - w) with
          | Ok lo => Ok (set_recv_inputs (aretain_ge (Z.min lo (sf - 1)) (u_recv_inputs s5)) s5)
          | Err => Err
          | Panic => Panic
          end
        | Err => Err
        | Panic => Panic
        end
      | Ok (false, s4) => Ok s4
      | Err => Err
      | Panic => Panic
      end
    | Err => Ok s3
    | Panic => Panic
    end
  | None =>
    if sf <=? last_recv_frame s2 then Ok (send_input_ack now s2) else Ok s2
  end.

Lemma eps_on_input_unfold : forall dbg now st dr sf af bytes t,
  on_input dbg now st dr sf af bytes t =
  if negb dr && negb (Z.of_nat (length st) =? u_num_players t) then Ok t
  else if sf <? 0 then Ok t
  else match eps_header st dr af t with
       | Ok s2 => eps_body dbg now sf bytes s2
       | Err => Err
       | Panic => Panic
       end.
Proof. reflexivity. Qed.

Lemma eps_merge_status_spec : forall mine theirs,
  match merge_status mine theirs with
  | Ok r => length r = length mine
  | Err => False
  | Panic => (length theirs < length mine)%nat
  end.
Proof.
  induction mine as [|[d f] ms IH]; intros theirs; cbn [merge_status]; [reflexivity|].
  destruct theirs as [|[d' f'] ts]; [cbn; lia|]. specialize (IH ts).
  destruct (merge_status ms ts); cbn [length]; [f_equal; exact IH|exact IH|lia].
Qed.

(* the reachable-state fact the status merge needs *)
Definition eps_wf (s : ep) : Prop := length (u_peer_status s) = Z.to_nat (u_num_players s).

(* the header part as an equation on states: the acknowledgement, then the merged statuses or, for a disconnect
   request, Disconnected raised once under the disconnect_event_sent guard *)
Lemma eps_header_nf : forall st dr af t s2, eps_header st dr af t = Ok s2 ->
  let p := pop_pending af (u_pending_output t) (u_last_acked t) in
  let d := dr && negb (pstate_eqb (u_state t) PDisconnected) && negb (u_event_sent t) in
  exists ps, (if dr then ps = u_peer_status t else merge_status (u_peer_status t) st = Ok ps) /\
    s2 = set_event_sent (u_event_sent t || d)
           (set_event_queue (u_event_queue t ++ (if d then [EvDisconnected] else []))
              (set_peer_status ps (set_last_acked (snd p) (set_pending_output (fst p) t)))).
Proof.
  intros st dr af t s2 H. unfold eps_header in H. rewrite pop_pending_output_nf in H. cbv zeta in *. fs in H.
  destruct dr; cbn [andb].
  - exists (u_peer_status t). split; [reflexivity|]. injection H as <-.
    destruct (negb _ && negb _); [rewrite orb_true_r|rewrite orb_false_r, app_nil_r]; exact eq_refl.
  - destruct (merge_status _ _) as [ps| |]; try discriminate. injection H as <-. exists ps. split; [reflexivity|].
    rewrite orb_false_r, app_nil_r. exact eq_refl.
Qed.

Lemma eps_header_ok : forall st dr af t,
  eps_wf t -> dr = true \/ Z.of_nat (length st) = u_num_players t -> exists s2, eps_header st dr af t = Ok s2.
Proof.
  intros st dr af t Hw Hd. unfold eps_header. cbv zeta. destruct dr; [eexists; reflexivity|].
  destruct Hd as [Hd|Hd]; [discriminate|].
  assert (Hp : u_peer_status (pop_pending_output af t) = u_peer_status t).
  { unfold pop_pending_output. destruct (pop_pending _ _ _). reflexivity. }
  rewrite Hp. pose proof (eps_merge_status_spec (u_peer_status t) st) as X. unfold eps_wf in Hw.
  destruct (merge_status _ _); [eauto|destruct X|lia].
Qed.

Lemma eps_player_values_length : forall n size bs vs, player_values n size bs = Some vs -> length vs = n.
Proof.
  induction n as [|n IH]; intros size bs vs H; cbn [player_values] in H.
  - inversion H. reflexivity.
  - destruct (le_value _); [|discriminate]. destruct (player_values n size _) eqn:E; [|discriminate].
    inversion H; subst. cbn. f_equal. eauto.
Qed.

Lemma eps_to_player_inputs_length : forall n bs vs, to_player_inputs n bs = Some vs -> length vs = n.
Proof.
  intros n bs vs H. unfold to_player_inputs in H. destruct n; [discriminate|].
  destruct (_ =? 0); [|discriminate]. eapply eps_player_values_length; eauto.
Qed.

Lemma eps_input_events_spec : forall f vs hs,
  match input_events f vs hs with
  | Ok evs => length evs = length vs /\ (forall e, In e evs -> exists v h, e = EvInput f v h)
  | Err => False
  | Panic => (length hs < length vs)%nat
  end.
Proof.
  induction vs as [|v vs IH]; intros hs; cbn [input_events]; [split; [reflexivity|intros e []]|].
  destruct hs as [|h hs]; [cbn; lia|]. specialize (IH hs).
  destruct (input_events f vs hs); [|exact IH|cbn [length]; lia].
  destruct IH as (L & F). split; [cbn [length]; lia|]. intros e [<-|X]; eauto.
Qed.

Lemma eps_i32_le : forall dbg x fr, TS_I32_MIN <= x -> ts_i32_arith dbg x = Ok fr -> fr <= x /\ TS_I32_MIN <= fr <= TS_I32_MAX.
Proof.
  intros dbg x fr Hx H. unfold ts_i32_arith, ts_in_i32 in H.
  destruct ((TS_I32_MIN <=? x) && (x <=? TS_I32_MAX)) eqn:E.
  - inversion H; subst. lia.
  - destruct dbg; [discriminate|]. inversion H; subst. unfold ts_wrap_i32, TS_I32_MIN, TS_I32_MAX in *. lia.
Qed.

Lemma eps_i32_exact : forall dbg x, TS_I32_MIN <= x <= TS_I32_MAX -> ts_i32_arith dbg x = Ok x.
Proof.
  intros dbg x H. unfold ts_i32_arith, ts_in_i32.
  assert ((TS_I32_MIN <=? x) && (x <=? TS_I32_MAX) = true) as -> by lia. reflexivity.
Qed.

Lemma eps_start_min : forall sf, 0 <= sf -> TS_I32_MIN <= sf + 0.
Proof. intros sf H. unfold TS_I32_MIN. lia. Qed.

Lemma eps_wrap_small : forall x, TS_I32_MIN <= x <= TS_I32_MAX -> ts_wrap_i32 x = x.
Proof. intros x H. unfold ts_wrap_i32, TS_I32_MIN, TS_I32_MAX in *. lia. Qed.

(* the loop never fails, and panics only on frame overflow (dev profile) *)
Lemma eps_accept_total : forall dbg start inputs i s,
  (dbg = true -> start + i + Z.of_nat (length inputs) - 1 <= TS_I32_MAX) -> TS_I32_MIN <= start + i ->
  exists b s', accept_inputs dbg start i inputs s = Ok (b, s').
Proof.
  induction inputs as [|inp rest IH]; intros i s Hov Hlo; cbn [accept_inputs]; [eauto|].
  cbn [length] in Hov.
  assert (exists fr, ts_i32_arith dbg (start + i) = Ok fr) as (fr & Ef).
  { unfold ts_i32_arith. destruct (ts_in_i32 (start + i)) eqn:E; [eauto|].
    destruct dbg; [|eauto]. unfold ts_in_i32 in E. specialize (Hov eq_refl). lia. }
  rewrite Ef.
  assert (Hrec : forall t, exists b s', accept_inputs dbg start (i + 1) rest t = Ok (b, s')).
  { intro t. apply IH; [intro D; specialize (Hov D)|]; lia. }
  destruct (fr <=? last_recv_frame s); [apply Hrec|].
  destruct (to_player_inputs (length (u_handles s)) inp) as [vals|] eqn:Et; [|eauto].
  apply eps_to_player_inputs_length in Et. pose proof (eps_input_events_spec fr vals (u_handles s)) as X.
  destruct (input_events _ _ _); [apply Hrec|destruct X|lia].
Qed.

(* what the loop changes: only recv_inputs and the event queue; keys are only added, every new key is
   the frame of an input of the packet, above the old last_recv_frame; every new event is an Input
   event for a new key *)
Lemma eps_accept_spec : forall dbg start inputs i s b s',
  accept_inputs dbg start i inputs s = Ok (b, s') -> TS_I32_MIN <= start + i ->
  eps_others s' = eps_others s /\
  (NoDup (eps_keys (u_recv_inputs s)) -> NoDup (eps_keys (u_recv_inputs s'))) /\
  (forall k, In k (eps_keys (u_recv_inputs s)) -> In k (eps_keys (u_recv_inputs s'))) /\
  (forall k v, In (k, v) (u_recv_inputs s') ->
     In (k, v) (u_recv_inputs s) \/
     (last_recv_frame s < k <= start + i + Z.of_nat (length inputs) - 1 /\ TS_I32_MIN <= k <= TS_I32_MAX /\
      exists j, nth_error inputs j = Some v /\ ts_i32_arith dbg (start + i + Z.of_nat j) = Ok k)) /\
  last_recv_frame s <= last_recv_frame s' /\
  (length (u_recv_inputs s') <= length (u_recv_inputs s) + length inputs)%nat /\
  exists evs, u_event_queue s' = u_event_queue s ++ evs /\
    (length evs <= length inputs * length (u_handles s))%nat /\
    forall e, In e evs -> exists k v h, e = EvInput k v h /\ last_recv_frame s < k /\
                                        In k (eps_keys (u_recv_inputs s')).
Proof.
  induction inputs as [|inp rest IH]; intros i s b s' H Hlo; cbn [accept_inputs] in H.
  - inversion H; subst. split; [reflexivity|]. split; [auto|]. split; [auto|]. split; [auto|].
    split; [lia|]. split; [cbn; lia|]. exists []. rewrite app_nil_r. split; [reflexivity|].
    split; [cbn; lia|intros e []].
  - destruct (ts_i32_arith dbg (start + i)) as [fr| |] eqn:Ef; try discriminate.
    destruct (eps_i32_le _ _ _ Hlo Ef) as (Hfr & Hrange).
    destruct (fr <=? last_recv_frame s) eqn:Ele.
    + apply IH in H; [|lia]. destruct H as (A & B & C & D & E & F & evs & G1 & G2 & G3).
      split; [exact A|]. split; [exact B|]. split; [exact C|]. split.
      * intros k v X. destruct (D k v X) as [Y|(Y1 & Y2 & j & Y3 & Y4)]; [left; exact Y|right].
        split; [cbn [length]; lia|]. split; [exact Y2|]. exists (S j). split; [exact Y3|].
        rewrite <- Y4. f_equal. lia.
      * split; [exact E|]. split; [cbn [length]; lia|]. exists evs. split; [exact G1|].
        split; [cbn [length]; lia|exact G3].
    + apply Z.leb_gt in Ele.
      destruct (to_player_inputs (length (u_handles s)) inp) as [vals|] eqn:Et.
      * destruct (input_events fr vals (u_handles s)) as [evs0| |] eqn:Ee; try discriminate.
        set (s1 := set_event_queue (u_event_queue s ++ evs0)
                     (set_recv_inputs (ainsert fr inp (u_recv_inputs s)) s)) in *.
        assert (L1 : last_recv_frame s1 = fr).
        { rewrite eps_lrf_eq. subst s1. fs. apply eps_lrf_ainsert_new. rewrite <- eps_lrf_eq. exact Ele. }
        apply IH in H; [|lia]. destruct H as (A & B & C & D & E & F & evs & G1 & G2 & G3).
        assert (R1 : u_recv_inputs s1 = ainsert fr inp (u_recv_inputs s)) by reflexivity.
        assert (Q1 : u_event_queue s1 = u_event_queue s ++ evs0) by reflexivity.
        assert (H1 : u_handles s1 = u_handles s) by reflexivity.
        split; [rewrite A; reflexivity|]. split.
        { intro N. apply B. rewrite R1. apply eps_nodup_ainsert. exact N. }
        split.
        { intros k X. apply C. rewrite R1. apply eps_keys_ainsert. right. exact X. }
        split.
        { intros k v X. destruct (D k v X) as [Y|(Y1 & Y2 & j & Y3 & Y4)].
          - rewrite R1 in Y. apply eps_in_ainsert in Y. destruct Y as [[-> ->]|Y]; [|left; exact Y].
            right. split; [cbn [length]; lia|]. split; [exact Hrange|]. exists O. split; [reflexivity|].
            rewrite <- Ef. f_equal. lia.
          - right. split; [cbn [length]; lia|]. split; [exact Y2|]. exists (S j). split; [exact Y3|].
            rewrite <- Y4. f_equal. lia. }
        split; [lia|]. split.
        { rewrite R1 in F. unfold ainsert in F. cbn [length] in *.
          assert (FL : (@length ibytes (aremove fr (u_recv_inputs s)) <= length (u_recv_inputs s))%nat)
            by apply eps_aremove_length.
          lia. }
        exists (evs0 ++ evs). split; [rewrite G1, Q1, app_assoc; reflexivity|].
        pose proof (eps_input_events_spec fr vals (u_handles s)) as X. rewrite Ee in X. destruct X as (L0 & F0).
        apply eps_to_player_inputs_length in Et. split.
        { rewrite app_length, L0, Et, H1 in *. cbn [length]. lia. }
        intros e X. apply in_app_iff in X. destruct X as [X|X].
        -- destruct (F0 e X) as (v & h & ->). exists fr, v, h. split; [reflexivity|]. split; [exact Ele|].
           apply C. rewrite R1. apply eps_keys_ainsert. left. reflexivity.
        -- destruct (G3 e X) as (k & v & h & -> & Y1 & Y2). exists k, v, h. split; [reflexivity|].
           split; [lia|exact Y2].
      * inversion H; subst. split; [reflexivity|]. split; [auto|]. split; [auto|]. split; [auto|].
        split; [lia|]. split; [lia|]. exists []. rewrite app_nil_r. split; [reflexivity|].
        split; [cbn; lia|intros e []].
Qed.

Lemma eps_accept_app : forall dbg start pre rest i s,
  accept_inputs dbg start i (pre ++ rest) s =
  match accept_inputs dbg start i pre s with
  | Ok (true, s1) => accept_inputs dbg start (i + Z.of_nat (length pre)) rest s1
  | Ok (false, s1) => Ok (false, s1)
  | Err => Err
  | Panic => Panic
  end.
Proof.
  induction pre as [|x pre IH]; intros rest i s; cbn [app accept_inputs length].
  - f_equal. cbn. lia.
  - destruct (ts_i32_arith dbg (start + i)) as [fr| |]; try reflexivity.
    assert (E : i + Z.of_nat (S (length pre)) = i + 1 + Z.of_nat (length pre)) by lia. rewrite E.
    destruct (fr <=? last_recv_frame s); [apply IH|].
    destruct (to_player_inputs _ x); [|reflexivity].
    destruct (input_events _ _ _); try reflexivity. apply IH.
Qed.

(* the wrong-size exit: the state is exactly the one after the loop over the frames before the
   offending one, which is new (above last_recv_frame) and fails to_player_inputs *)
Lemma eps_accept_false : forall dbg start inputs i s s',
  accept_inputs dbg start i inputs s = Ok (false, s') ->
  exists pre bad post fr, inputs = pre ++ bad :: post /\
    accept_inputs dbg start i pre s = Ok (true, s') /\
    ts_i32_arith dbg (start + i + Z.of_nat (length pre)) = Ok fr /\ last_recv_frame s' < fr /\
    to_player_inputs (length (u_handles s')) bad = None.
Proof.
  induction inputs as [|inp rest IH]; intros i s s' H; cbn [accept_inputs] in H; [discriminate|].
  destruct (ts_i32_arith dbg (start + i)) as [fr| |] eqn:Ef; try discriminate.
  assert (Hrec : forall t, accept_inputs dbg start (i + 1) rest t = Ok (false, s') ->
            (forall pre, accept_inputs dbg start i (inp :: pre) s = accept_inputs dbg start (i + 1) pre t) ->
            exists pre bad post fr0, inp :: rest = pre ++ bad :: post /\
              accept_inputs dbg start i pre s = Ok (true, s') /\
              ts_i32_arith dbg (start + i + Z.of_nat (length pre)) = Ok fr0 /\ last_recv_frame s' < fr0 /\
              to_player_inputs (length (u_handles s')) bad = None).
  { intros t Ht Hf. destruct (IH _ _ _ Ht) as (pre & bad & post & fr0 & E1 & E2 & E3 & E4 & E5).
    exists (inp :: pre), bad, post, fr0. split; [rewrite E1; reflexivity|].
    split; [rewrite Hf; exact E2|]. split; [|auto].
    rewrite <- E3. f_equal. cbn [length]. lia. }
  destruct (fr <=? last_recv_frame s) eqn:Ele.
  - apply (Hrec s H). intro pre. cbn [accept_inputs]. rewrite Ef, Ele. reflexivity.
  - destruct (to_player_inputs (length (u_handles s)) inp) as [vals|] eqn:Et.
    + destruct (input_events fr vals (u_handles s)) as [evs| |] eqn:Ee; try discriminate.
      apply (Hrec _ H). intro pre. cbn [accept_inputs]. rewrite Ef, Ele, Et, Ee. reflexivity.
    + inversion H; subst. exists [], inp, rest, fr. split; [reflexivity|]. split; [reflexivity|].
      split; [rewrite <- Ef; f_equal; cbn; lia|]. split; [lia|exact Et].
Qed.

(* a new frame of the wrong size makes the loop leave through that exit (at that frame or earlier) *)
Lemma eps_accept_hits_bad : forall dbg start inputs i s j bad,
  nth_error inputs j = Some bad -> to_player_inputs (length (u_handles s)) bad = None ->
  start + i + Z.of_nat (length inputs) - 1 <= TS_I32_MAX -> TS_I32_MIN <= start + i ->
  last_recv_frame s < start + i + Z.of_nat j ->
  exists s', accept_inputs dbg start i inputs s = Ok (false, s').
Proof.
  induction inputs as [|inp rest IH]; intros i s j bad Hn Hb Hov Hlo Hnew; [destruct j; discriminate|].
  cbn [accept_inputs]. cbn [length] in Hov.
  rewrite (eps_i32_exact dbg (start + i)) by lia.
  destruct j as [|j]; cbn [nth_error] in Hn.
  - inversion Hn; subst. assert ((start + i <=? last_recv_frame s) = false) as -> by lia.
    rewrite Hb. eauto.
  - destruct (start + i <=? last_recv_frame s) eqn:Ele.
    + apply (IH (i + 1) s j bad); try assumption; lia.
    + apply Z.leb_gt in Ele.
      destruct (to_player_inputs (length (u_handles s)) inp) as [vals|] eqn:Et; [|eauto].
      pose proof (eps_to_player_inputs_length _ _ _ Et) as Lv.
      pose proof (eps_input_events_spec (start + i) vals (u_handles s)) as X.
      destruct (input_events _ _ _) as [evs| |]; [|destruct X|lia].
      apply (IH (i + 1) _ j bad); try assumption; try lia.
      rewrite eps_lrf_eq. fs. rewrite eps_lrf_ainsert_new; [lia|]. rewrite <- eps_lrf_eq. exact Ele.
Qed.

(* the loop never removes or overwrites an entry: new frames lie above every stored key *)
Lemma eps_accept_keeps : forall dbg start inputs i s b s',
  accept_inputs dbg start i inputs s = Ok (b, s') ->
  forall k v, In (k, v) (u_recv_inputs s) -> In (k, v) (u_recv_inputs s').
Proof.
  induction inputs as [|inp rest IH]; intros i s b s' H k v X; cbn [accept_inputs] in H.
  - inversion H; subst. exact X.
  - destruct (ts_i32_arith dbg (start + i)) as [fr| |] eqn:Ef; try discriminate.
    destruct (fr <=? last_recv_frame s) eqn:Ele; [eapply IH; eauto|].
    apply Z.leb_gt in Ele.
    destruct (to_player_inputs (length (u_handles s)) inp) as [vals|] eqn:Et; [|inversion H; subst; exact X].
    destruct (input_events fr vals (u_handles s)) as [evs0| |] eqn:Ee; try discriminate.
    eapply IH; [exact H|]. fs. right. apply eps_in_aremove. split; [exact X|]. apply eps_in_le_lrf in X. lia.
Qed.

Lemma eps_accept_lrf_range : forall dbg start inputs i s b s',
  accept_inputs dbg start i inputs s = Ok (b, s') -> TS_I32_MIN <= start + i ->
  u_recv_inputs s <> [] -> last_recv_frame s <= TS_I32_MAX ->
  u_recv_inputs s' <> [] /\ last_recv_frame s <= last_recv_frame s' <= TS_I32_MAX.
Proof.
  intros dbg start inputs i s b s' H Hlo Hne Hmax.
  destruct (eps_accept_spec _ _ _ _ _ _ _ H Hlo) as (_ & _ & C & D & E & _).
  assert (Hne' : u_recv_inputs s' <> []).
  { destruct (u_recv_inputs s) as [|[k v] r] eqn:Er; [congruence|].
    specialize (C k (or_introl eq_refl)). intro N. rewrite N in C. destruct C. }
  split; [exact Hne'|]. split; [exact E|].
  destruct (eps_lrf_is_max _ Hne') as (A & _). rewrite <- eps_lrf_eq in A.
  apply in_map_iff in A. destruct A as ([k v] & Ek & A). cbn in Ek.
  destruct (D _ _ A) as [Z1|(_ & Z2 & _)]; [apply eps_in_le_lrf in Z1|]; lia.
Qed.

Definition EPS_MAX_WINDOW : Z := 1073741823.   (* 2^30 - 1: `2 * max_prediction as i32` does not overflow *)

Definition eps_window_ok (s : ep) : Prop := 0 <= u_max_prediction s <= EPS_MAX_WINDOW.

Definition eps_ri_ok (s : ep) : Prop :=
  NoDup (eps_keys (u_recv_inputs s)) /\ u_recv_inputs s <> [] /\
  Forall (fun k => -1 <= k <= TS_I32_MAX) (eps_keys (u_recv_inputs s)).

Lemma eps_ri_ok_ext : forall s s', u_recv_inputs s' = u_recv_inputs s -> eps_ri_ok s -> eps_ri_ok s'.
Proof. intros s s' E H. unfold eps_ri_ok in *. rewrite E. exact H. Qed.

Lemma eps_ri_ok_lrf : forall s, eps_ri_ok s ->
  -1 <= last_recv_frame s <= TS_I32_MAX /\ In (last_recv_frame s) (eps_keys (u_recv_inputs s)) /\
  (forall k, In k (eps_keys (u_recv_inputs s)) -> k <= last_recv_frame s).
Proof.
  intros s (_ & Hne & Hr). destruct (eps_lrf_is_max _ Hne) as (A & B). rewrite <- eps_lrf_eq in *.
  rewrite Forall_forall in Hr, B. split; [exact (Hr _ A)|]. split; [exact A|exact B].
Qed.

Lemma eps_accept_ri_ok : forall dbg start inputs s b s',
  accept_inputs dbg start 0 inputs s = Ok (b, s') -> 0 <= start -> eps_ri_ok s -> eps_ri_ok s'.
Proof.
  intros dbg start inputs s b s' H Hs (Hn & Hne & Hr).
  destruct (eps_accept_spec _ _ _ _ _ _ _ H (eps_start_min _ Hs)) as (_ & B & C & D & _).
  destruct (eps_ri_ok_lrf s (conj Hn (conj Hne Hr))) as (L & _).
  split; [auto|]. split.
  - destruct (u_recv_inputs s) as [|[k v] r] eqn:Er; [congruence|].
    specialize (C k (or_introl eq_refl)). intro N. rewrite N in C. destruct C.
  - apply Forall_forall. intros k X. unfold eps_keys in X. apply in_map_iff in X.
    destruct X as ([k0 v] & Ek & X). cbn in Ek. subst k0.
    destruct (D _ _ X) as [Y|(Y1 & Y2 & _)]; [|lia].
    rewrite Forall_forall in Hr. apply Hr. exact (in_map fst _ _ Y).
Qed.

(* the retain step of a completed on_input, with the arithmetic made exact by [eps_window_ok] *)
Lemma eps_retain_arith : forall dbg mp lrf w lo,
  0 <= mp <= EPS_MAX_WINDOW -> -1 <= lrf <= TS_I32_MAX ->
  ts_i32_arith dbg (2 * ts_wrap_i32 mp) = Ok w -> ts_i32_arith dbg (lrf - w) = Ok lo ->
  w = 2 * mp /\ lo = lrf - 2 * mp.
Proof.
  intros dbg mp lrf w lo Hm Hl H1 H2. unfold EPS_MAX_WINDOW in Hm.
  rewrite (eps_wrap_small mp) in H1 by (unfold TS_I32_MIN, TS_I32_MAX; lia).
  rewrite (eps_i32_exact dbg (2 * mp)) in H1 by (unfold TS_I32_MIN, TS_I32_MAX; lia).
  assert (Ew : w = 2 * mp) by (injection H1; auto). subst w.
  rewrite (eps_i32_exact dbg (lrf - 2 * mp)) in H2 by (unfold TS_I32_MIN, TS_I32_MAX in *; lia).
  split; [reflexivity|]. injection H2; auto.
Qed.

Definition eps_decode_frame (s : ep) (sf : Z) : Z := if last_recv_frame s =? NULL then NULL else sf - 1.

Lemma eps_decode_frame_ext : forall s s', u_recv_inputs s' = u_recv_inputs s -> eps_decode_frame s' = eps_decode_frame s.
Proof. intros s s' H. unfold eps_decode_frame, last_recv_frame. rewrite H. reflexivity. Qed.

(* the exits of handle_message for an Input packet *)
Inductive eps_input_exit (dbg : bool) (now : Z) (st : list status) (dr : bool) (sf af : Z) (bytes : list N)
                         (s : ep) : ep -> Prop :=
| eps_exit_filtered : eps_input_exit dbg now st dr sf af bytes s s
| eps_exit_header : (dr = false /\ Z.of_nat (length st) <> u_num_players s) \/ sf < 0 ->
    eps_input_exit dbg now st dr sf af bytes s (eps_touch now s)
| eps_exit_gap : forall s2, eps_header st dr af (eps_touch now s) = Ok s2 -> 0 <= sf ->
    alookup (eps_decode_frame s2 sf) (u_recv_inputs s2) = None -> last_recv_frame s2 < sf ->
    eps_input_exit dbg now st dr sf af bytes s s2
| eps_exit_reack : forall s2, eps_header st dr af (eps_touch now s) = Ok s2 -> 0 <= sf ->
    alookup (eps_decode_frame s2 sf) (u_recv_inputs s2) = None -> sf <= last_recv_frame s2 ->
    eps_input_exit dbg now st dr sf af bytes s (send_input_ack now s2)
| eps_exit_undecodable : forall s2 ref, eps_header st dr af (eps_touch now s) = Ok s2 -> 0 <= sf ->
    alookup (eps_decode_frame s2 sf) (u_recv_inputs s2) = Some ref -> Codec.decode dbg ref bytes = Err ->
    eps_input_exit dbg now st dr sf af bytes s (set_last_input_recv now s2)
| eps_exit_wrong_size : forall s2 ref inputs s4, eps_header st dr af (eps_touch now s) = Ok s2 -> 0 <= sf ->
    alookup (eps_decode_frame s2 sf) (u_recv_inputs s2) = Some ref -> Codec.decode dbg ref bytes = Ok inputs ->
    accept_inputs dbg sf 0 inputs (set_last_input_recv now s2) = Ok (false, s4) ->
    eps_input_exit dbg now st dr sf af bytes s s4
| eps_exit_complete : forall s2 ref inputs s4 w lo, eps_header st dr af (eps_touch now s) = Ok s2 -> 0 <= sf ->
    alookup (eps_decode_frame s2 sf) (u_recv_inputs s2) = Some ref -> Codec.decode dbg ref bytes = Ok inputs ->
    accept_inputs dbg sf 0 inputs (set_last_input_recv now s2) = Ok (true, s4) ->
    ts_i32_arith dbg (2 * ts_wrap_i32 (u_max_prediction s4)) = Ok w ->
    ts_i32_arith dbg (last_recv_frame s4 - w) = Ok lo ->
    eps_input_exit dbg now st dr sf af bytes s
      (set_recv_inputs (aretain_ge (Z.min lo (sf - 1)) (u_recv_inputs s4)) (send_input_ack now s4)).

Lemma eps_input_exits : forall dbg now nonce m st dr sf af bytes s s',
  m_body m = Input st dr sf af bytes -> handle_message dbg now nonce m s = Ok s' ->
  eps_input_exit dbg now st dr sf af bytes s s'.
Proof.
  intros dbg now nonce m st dr sf af bytes s s' Hb H. rewrite eps_handle_unfold, Hb in H.
  destruct (passes_filters s m); cbn [negb] in H; [|inversion H; constructor].
  cbv zeta in H. rewrite eps_on_input_unfold in H.
  rewrite eps_touch_num_players in H.
  destruct (negb dr && negb (Z.of_nat (length st) =? u_num_players s)) eqn:E1.
  { inversion H; subst. apply eps_exit_header. left. destruct dr; [discriminate|].
    split; [reflexivity|]. cbn in E1. lia. }
  destruct (sf <? 0) eqn:E2; [inversion H; subst; apply eps_exit_header; right; lia|].
  apply Z.ltb_ge in E2.
  destruct (eps_header st dr af (eps_touch now s)) as [s2| |] eqn:Eh; try discriminate.
  unfold eps_body in H. cbv zeta in H. fold (eps_decode_frame s2 sf) in H.
  destruct (alookup (eps_decode_frame s2 sf) (u_recv_inputs s2)) as [ref|] eqn:El.
  - destruct (Codec.decode dbg ref bytes) as [inputs| |] eqn:Ed; try discriminate.
    + destruct (accept_inputs dbg sf 0 inputs (set_last_input_recv now s2)) as [[[|] s4]| |] eqn:Ea; try discriminate.
      * change (last_recv_frame (send_input_ack now s4)) with (last_recv_frame s4) in H.
        change (u_max_prediction (send_input_ack now s4)) with (u_max_prediction s4) in H.
        change (u_recv_inputs (send_input_ack now s4)) with (u_recv_inputs s4) in H.
        destruct (ts_i32_arith dbg (2 * ts_wrap_i32 (u_max_prediction s4))) as [w| |] eqn:Ew; try discriminate.
        destruct (ts_i32_arith dbg (last_recv_frame s4 - w)) as [lo| |] eqn:Elo; try discriminate.
        inversion H; subst. eapply eps_exit_complete; eauto.
      * inversion H; subst. eapply eps_exit_wrong_size; eauto.
    + inversion H; subst. eapply eps_exit_undecodable; eauto.
  - destruct (sf <=? last_recv_frame s2) eqn:E3; inversion H; subst.
    + apply eps_exit_reack; auto. lia.
    + apply eps_exit_gap; auto. lia.
Qed.

(* [s'] = [s] after the bookkeeping of an accepted packet (eps_touch), pop_pending_output(ack_frame) and the
   status merge / disconnect request; nothing else differs, except possibly running_last_input_recv *)
Definition eps_header_only (now : Z) (st : list status) (dr : bool) (af : Z) (s s' : ep) : Prop :=
  u_recv_inputs s' = u_recv_inputs s /\ u_send_queue s' = u_send_queue s /\ u_state s' = u_state s /\
  u_sync_remaining s' = u_sync_remaining s /\ u_sync_requests s' = u_sync_requests s /\
  u_remote_magic s' = u_remote_magic s /\ u_magic s' = u_magic s /\
  u_num_players s' = u_num_players s /\ u_handles s' = u_handles s /\ u_max_prediction s' = u_max_prediction s /\
  u_desync s' = u_desync s /\ u_pending_checksums s' = u_pending_checksums s /\
  u_timeout s' = u_timeout s /\ u_notify_start s' = u_notify_start s /\
  u_last_send_time s' = u_last_send_time s /\ u_last_quality_report s' = u_last_quality_report s /\
  u_last_sync_request_time s' = u_last_sync_request_time s /\ u_shutdown_timeout s' = u_shutdown_timeout s /\
  u_time_sync s' = u_time_sync s /\ u_local_adv s' = u_local_adv s /\ u_remote_adv s' = u_remote_adv s /\
  u_rtt s' = u_rtt s /\ u_stats_start s' = u_stats_start s /\ u_fps s' = u_fps s /\
  u_last_recv_time s' = now /\
  (u_pending_output s', u_last_acked s') = pop_pending af (u_pending_output s) (u_last_acked s) /\
  (if dr then u_peer_status s' = u_peer_status s
   else merge_status (u_peer_status s) st = Ok (u_peer_status s')) /\
  u_event_sent s' = u_event_sent s || (dr && negb (pstate_eqb (u_state s) PDisconnected)) /\
  u_notify_sent s' = (if resumed_cond s then false else u_notify_sent s) /\
  u_event_queue s' = u_event_queue s ++ resumed_pre s ++
    (if dr && negb (pstate_eqb (u_state s) PDisconnected) && negb (u_event_sent s) then [EvDisconnected] else []).

Lemma eps_header_touch : forall now st dr af s s2,
  eps_header st dr af (eps_touch now s) = Ok s2 ->
  eps_header_only now st dr af s s2 /\ u_last_input_recv s2 = u_last_input_recv s.
Proof.
  intros now st dr af s s2 H. apply eps_header_nf in H. rewrite eps_touch_nf in H. cbv zeta in H. fs in H.
  destruct H as (ps & Hps & ->). split; [|reflexivity]. unfold eps_header_only. fs.
  repeat (split; [first [reflexivity | symmetry; apply surjective_pairing]|]).
  split; [destruct dr; [rewrite Hps; reflexivity|exact Hps]|].
  split; [destruct (u_event_sent s), dr, (pstate_eqb (u_state s) PDisconnected); reflexivity|].
  split; [reflexivity|apply app_assoc_reverse].
Qed.

Lemma eps_header_recv : forall now st dr af s s2, eps_header st dr af (eps_touch now s) = Ok s2 ->
  u_recv_inputs s2 = u_recv_inputs s /\ u_handles s2 = u_handles s /\ u_max_prediction s2 = u_max_prediction s.
Proof.
  intros now st dr af s s2 Eh. apply eps_header_nf in Eh. cbv zeta in Eh. destruct Eh as (ps & _ & ->).
  rewrite eps_touch_nf. auto.
Qed.

Lemma eps_header_ri : forall now st dr af s s2, eps_header st dr af (eps_touch now s) = Ok s2 ->
  eps_decode_frame s2 = eps_decode_frame s /\ (eps_ri_ok s -> eps_ri_ok s2) /\ (eps_window_ok s -> eps_window_ok s2).
Proof.
  intros now st dr af s s2 Eh. destruct (eps_header_recv _ _ _ _ _ _ Eh) as (E1 & _ & E3).
  unfold eps_window_ok, eps_ri_ok. rewrite E1, E3, (eps_decode_frame_ext _ _ E1). auto.
Qed.

(* an accepted Input packet with a well-formed header *)
Lemma eps_handle_input_ok_header : forall dbg now nonce m st dr sf af bytes s,
  m_body m = Input st dr sf af bytes -> passes_filters s m = true ->
  dr = true \/ Z.of_nat (length st) = u_num_players s -> 0 <= sf ->
  handle_message dbg now nonce m s =
  match eps_header st dr af (eps_touch now s) with
  | Ok s2 => eps_body dbg now sf bytes s2
  | Err => Err
  | Panic => Panic
  end.
Proof.
  intros dbg now nonce m st dr sf af bytes s Hb Hp Hd Hs. rewrite eps_handle_unfold, Hb, Hp. cbn [negb]. cbv zeta.
  rewrite eps_on_input_unfold, eps_touch_num_players.
  assert (negb dr && negb (Z.of_nat (length st) =? u_num_players s) = false) as ->.
  { destruct Hd as [-> | Hd]; [reflexivity|]. rewrite andb_false_iff. right. lia. }
  assert ((sf <? 0) = false) as -> by lia. reflexivity.
Qed.

(* ... at a well-formed endpoint: handle_message is [eps_body] on the state the header part leaves *)
Lemma eps_handle_input_body : forall dbg now nonce m st dr sf af bytes s,
  m_body m = Input st dr sf af bytes -> passes_filters s m = true -> eps_wf s ->
  dr = true \/ Z.of_nat (length st) = u_num_players s -> 0 <= sf ->
  exists s2, eps_header st dr af (eps_touch now s) = Ok s2 /\
    handle_message dbg now nonce m s = eps_body dbg now sf bytes s2.
Proof.
  intros dbg now nonce m st dr sf af bytes s Hb Hp Hw Hd Hs.
  rewrite (eps_handle_input_ok_header _ _ _ _ _ _ _ _ _ _ Hb Hp Hd Hs).
  destruct (eps_header_ok st dr af (eps_touch now s)) as (s2 & Eh);
    [rewrite eps_touch_nf; exact Hw|rewrite eps_touch_num_players; exact Hd|].
  rewrite Eh. eauto.
Qed.

(* (e) a decoded frame of the wrong size that is new (above last_recv_frame): the handler leaves at the first such
   frame, with the frames before it accepted *)
Lemma eps_wrong_size_dropped : forall dbg now nonce m st dr sf af bytes s ref inputs j bad,
  m_body m = Input st dr sf af bytes -> passes_filters s m = true -> eps_wf s ->
  dr = true \/ Z.of_nat (length st) = u_num_players s -> 0 <= sf ->
  alookup (eps_decode_frame s sf) (u_recv_inputs s) = Some ref ->
  Codec.decode dbg ref bytes = Ok inputs ->
  nth_error inputs j = Some bad -> to_player_inputs (length (u_handles s)) bad = None ->
  sf + Z.of_nat (length inputs) - 1 <= TS_I32_MAX -> last_recv_frame s < sf + Z.of_nat j ->
  exists s2 s' pre bad' post,
    eps_header st dr af (eps_touch now s) = Ok s2 /\ eps_header_only now st dr af s s2 /\
    handle_message dbg now nonce m s = Ok s' /\
    inputs = pre ++ bad' :: post /\ (length pre <= j)%nat /\
    to_player_inputs (length (u_handles s)) bad' = None /\
    accept_inputs dbg sf 0 pre (set_last_input_recv now s2) = Ok (true, s') /\
    u_send_queue s' = u_send_queue s /\
    (forall k v h, In (EvInput k v h) (u_event_queue s') ->
       In (EvInput k v h) (u_event_queue s) \/ k < sf + Z.of_nat (length pre)).
Proof.
  intros dbg now nonce m st dr sf af bytes s ref inputs j bad Hb Hp Hw Hd Hs Hl Hdec Hn Hbad Hov Hnew.
  destruct (eps_handle_input_body dbg now nonce m st dr sf af bytes s Hb Hp Hw Hd Hs) as (s2 & Eh & ->).
  destruct (eps_header_touch _ _ _ _ _ _ Eh) as (Ho & _).
  destruct (eps_header_recv _ _ _ _ _ _ Eh) as (Eri & Eh2 & _). pose proof (eps_decode_frame_ext _ _ Eri) as Edf.
  set (s3 := set_last_input_recv now s2).
  assert (L3 : last_recv_frame s3 = last_recv_frame s) by (apply eps_last_recv_frame_ext; exact Eri).
  assert (H3 : u_handles s3 = u_handles s) by exact Eh2.
  pose proof (eps_start_min _ Hs) as Hmin.
  destruct (eps_accept_hits_bad dbg sf inputs 0 s3 j bad Hn) as (s' & Ea);
    [rewrite H3; exact Hbad|lia|exact Hmin|rewrite L3; lia|].
  unfold eps_body. cbv zeta. fold (eps_decode_frame s2 sf). rewrite Edf, Eri, Hl, Hdec. fold s3. rewrite Ea.
  destruct (eps_accept_false _ _ _ _ _ _ Ea) as (pre & bad' & post & fr & E1 & E2 & _ & _ & E5).
  destruct (eps_accept_spec _ _ _ _ _ _ _ E2 Hmin) as (_ & _ & _ & D & _ & _ & evs & G1 & _ & G3).
  destruct (accept_inputs_shape _ _ _ _ _ _ _ E2) as (ri & evs' & Es' & _).
  exists s2, s', pre, bad', post. split; [exact Eh|]. split; [exact Ho|]. split; [reflexivity|].
  split; [exact E1|]. split.
  { (* the exit is at the first offending frame *)
    destruct (Nat.le_gt_cases (length pre) j) as [Hle|Hgt]; [exact Hle|]. exfalso.
    destruct (eps_accept_hits_bad dbg sf pre 0 s3 j bad) as (x & Ex).
    - rewrite E1 in Hn. rewrite nth_error_app1 in Hn by lia. exact Hn.
    - rewrite H3. exact Hbad.
    - rewrite E1, app_length in Hov. lia.
    - exact Hmin.
    - rewrite L3. lia.
    - rewrite Ex in E2. discriminate. }
  split; [rewrite Es' in E5; rewrite <- Eh2; exact E5|]. split; [exact E2|]. split; [rewrite Es'; apply Ho|].
  intros k v h X. rewrite G1 in X. apply in_app_iff in X. destruct X as [X|X].
  - left. apply eps_header_nf in Eh. rewrite eps_touch_nf in Eh. cbv zeta in Eh. fs in Eh.
    destruct Eh as (ps & _ & Eq). subst s3. rewrite Eq in X. fs in X. rewrite !in_app_iff in X.
    destruct X as [[X|X]|X]; [exact X| |]; exfalso.
    + unfold resumed_pre in X. destruct (resumed_cond s); [destruct X as [X|[]]; discriminate|destruct X].
    + destruct (dr && _ && _); [destruct X as [X|[]]; discriminate|destruct X].
  - right. destruct (G3 _ X) as (k' & v' & h' & Ee & Y1 & Y2). injection Ee as <- <- <-.
    apply in_map_iff in Y2. destruct Y2 as ([k0 b0] & Ek & Y2). cbn in Ek. subst k0.
    destruct (D _ _ Y2) as [Z1|(Z1 & _)]; [|lia]. apply eps_in_le_lrf in Z1. lia.
Qed.

(* the part of on_input after the header never fails, and panics only in the dev profile when frame
   arithmetic overflows (start_frame at the top of the i32 range) or the window is absurdly large *)
Lemma eps_body_total : forall dbg now sf bytes s2, 0 <= sf ->
  (dbg = true -> sf + Z.of_N MAX_DECODED_INPUTS - 1 <= TS_I32_MAX /\
                 0 <= u_max_prediction s2 <= EPS_MAX_WINDOW /\ -1 <= last_recv_frame s2 <= TS_I32_MAX) ->
  exists s', eps_body dbg now sf bytes s2 = Ok s'.
Proof.
  intros dbg now sf bytes s2 Hs Hd. unfold eps_body. cbv zeta.
  destruct (alookup _ (u_recv_inputs s2)) as [ref|] eqn:El.
  2:{ destruct (sf <=? last_recv_frame s2); eauto. }
  destruct (Codec.decode dbg ref bytes) as [inputs| |] eqn:Ed; [|eauto|exfalso; exact (decode_total eps_cap_ok _ _ _ Ed)].
  destruct (decode_bounded eps_cap_ok _ _ _ _ Ed) as (_ & _ & Hn).
  set (s3 := set_last_input_recv now s2).
  pose proof (eps_start_min _ Hs) as Hmin.
  destruct (eps_accept_total dbg sf inputs 0 s3) as (b & s4 & Ea).
  { intro D. destruct (Hd D) as (H1 & _). lia. }
  { exact Hmin. }
  rewrite Ea. destruct b; [|eauto].
  change (last_recv_frame (send_input_ack now s4)) with (last_recv_frame s4).
  change (u_max_prediction (send_input_ack now s4)) with (u_max_prediction s4).
  destruct dbg.
  - destruct (Hd eq_refl) as (H1 & H2 & H3).
    assert (Hne : u_recv_inputs s3 <> []).
    { apply eps_alookup_in in El. intro N. change (u_recv_inputs s3) with (u_recv_inputs s2) in N.
      rewrite N in El. destruct El. }
    destruct (eps_accept_lrf_range _ _ _ _ _ _ _ Ea Hmin Hne) as (_ & L1 & L2);
      [change (last_recv_frame s3) with (last_recv_frame s2); lia|].
    change (last_recv_frame s3) with (last_recv_frame s2) in L1.
    assert (O20 : u_max_prediction s4 = u_max_prediction s2)
      by (destruct (accept_inputs_shape _ _ _ _ _ _ _ Ea) as (? & ? & -> & _); reflexivity).
    rewrite O20.
    unfold EPS_MAX_WINDOW in H2.
    rewrite (eps_wrap_small (u_max_prediction s2)) by (unfold TS_I32_MIN, TS_I32_MAX; lia).
    rewrite (eps_i32_exact true (2 * u_max_prediction s2)) by (unfold TS_I32_MIN, TS_I32_MAX; lia).
    rewrite (eps_i32_exact true (last_recv_frame s4 - 2 * u_max_prediction s2))
      by (unfold TS_I32_MIN, TS_I32_MAX in *; lia).
    eauto.
  - unfold ts_i32_arith. destruct (ts_in_i32 _); destruct (ts_in_i32 _); eauto.
Qed.

Lemma eps_input_total : forall dbg now nonce m st dr sf af bytes s,
  m_body m = Input st dr sf af bytes -> eps_wf s ->
  (dbg = true -> sf + Z.of_N MAX_DECODED_INPUTS - 1 <= TS_I32_MAX /\
                 0 <= u_max_prediction s <= EPS_MAX_WINDOW /\ -1 <= last_recv_frame s <= TS_I32_MAX) ->
  exists s', handle_message dbg now nonce m s = Ok s'.
Proof.
  intros dbg now nonce m st dr sf af bytes s Hb Hw Hd.
  destruct (passes_filters s m) eqn:Hp.
  2:{ rewrite eps_handle_unfold, Hp. eexists. reflexivity. }
  destruct (Z_lt_le_dec sf 0) as [Hs|Hs].
  { rewrite (eps_bad_header_dropped _ _ _ _ _ _ _ _ _ _ Hb) by (right; exact Hs). eauto. }
  assert (Hcases : (dr = true \/ Z.of_nat (length st) = u_num_players s) \/
                   (dr = false /\ Z.of_nat (length st) <> u_num_players s)).
  { destruct dr; [auto|]. destruct (Z.eq_dec (Z.of_nat (length st)) (u_num_players s)); auto. }
  destruct Hcases as [Hc|Hc].
  2:{ rewrite (eps_bad_header_dropped _ _ _ _ _ _ _ _ _ _ Hb) by (left; exact Hc). eauto. }
  destruct (eps_handle_input_body dbg now nonce m st dr sf af bytes s Hb Hp Hw Hc Hs) as (s2 & Eh & ->).
  destruct (eps_header_recv _ _ _ _ _ _ Eh) as (Eri & _ & Emp).
  apply eps_body_total; [exact Hs|]. rewrite Emp, (eps_last_recv_frame_ext _ _ Eri). exact Hd.
Qed.

(* the witness outside the listed kinds: a packet under the peer's magic whose FIRST frame is valid and sits
   at i32::MAX; the second frame's number overflows (`body.start_frame + i as i32`) in the dev profile
   before its size is looked at.  Release wraps and skips it. *)
Definition eps_w_overflow : list op :=
  w_handshake ++
  [OMessage 0 200 (mkMsg 7 (Input w_status false 2147483647 (-1)
                              (Codec.encode [0;0;0;0]%N [[1;0;0;0]%N; [7;7;7]%N])))].

(* a completed on_input (loop finished, ack queued, old entries pruned) *)
Lemma eps_complete_exit_ri : forall dbg now sf inputs s3 s4 w lo ref,
  eps_ri_ok s3 -> eps_window_ok s3 -> 0 <= sf ->
  alookup (eps_decode_frame s3 sf) (u_recv_inputs s3) = Some ref ->
  accept_inputs dbg sf 0 inputs s3 = Ok (true, s4) ->
  ts_i32_arith dbg (2 * ts_wrap_i32 (u_max_prediction s4)) = Ok w ->
  ts_i32_arith dbg (last_recv_frame s4 - w) = Ok lo ->
  let s' := set_recv_inputs (aretain_ge (Z.min lo (sf - 1)) (u_recv_inputs s4)) (send_input_ack now s4) in
  eps_ri_ok s' /\ last_recv_frame s' = last_recv_frame s4 /\ last_recv_frame s3 <= last_recv_frame s4 /\
  Z.of_nat (length (u_recv_inputs s')) <=
    Z.max (2 * u_max_prediction s3) (last_recv_frame s' - sf + 1) + 1 /\
  ((length (u_recv_inputs s') <= length (u_recv_inputs s3))%nat \/
   last_recv_frame s' <= sf + Z.of_nat (length inputs) - 1) /\
  (forall k v, In (k, v) (u_recv_inputs s') -> In (k, v) (u_recv_inputs s4)) /\
  (forall k v, In (k, v) (u_recv_inputs s3) -> Z.min (last_recv_frame s4 - 2 * u_max_prediction s3) (sf - 1) <= k ->
               alookup k (u_recv_inputs s') = Some v).
Proof.
  intros dbg now sf inputs s3 s4 w lo ref Hok Hw Hs Hl Ha Ew Elo. cbv zeta.
  pose proof (eps_accept_ri_ok _ _ _ _ _ _ Ha Hs Hok) as Hok4.
  destruct (eps_accept_spec _ _ _ _ _ _ _ Ha (eps_start_min _ Hs)) as (_ & B & C & D & E & F & _).
  assert (O20 : u_max_prediction s4 = u_max_prediction s3)
    by (destruct (accept_inputs_shape _ _ _ _ _ _ _ Ha) as (? & ? & -> & _); reflexivity).
  unfold eps_window_ok in Hw.
  destruct (eps_ri_ok_lrf _ Hok4) as (L4 & K4 & M4).
  rewrite O20 in Ew. destruct (eps_retain_arith _ _ _ _ _ Hw L4 Ew Elo) as (-> & ->).
  set (lo' := Z.min (last_recv_frame s4 - 2 * u_max_prediction s3) (sf - 1)).
  assert (Hlo' : lo' <= last_recv_frame s4) by (subst lo'; lia).
  destruct Hok4 as (N4 & Ne4 & R4).
  rewrite eps_lrf_eq in Hlo'. destruct (eps_lrf_retain lo' _ Ne4 Hlo') as (Ne' & El').
  set (ri' := aretain_ge lo' (u_recv_inputs s4)) in *.
  assert (Hri : u_recv_inputs (set_recv_inputs ri' (send_input_ack now s4)) = ri') by reflexivity.
  assert (Hlrf : last_recv_frame (set_recv_inputs ri' (send_input_ack now s4)) = last_recv_frame s4).
  { rewrite !eps_lrf_eq, Hri. exact El'. }
  pose proof (fun k => proj1 (eps_keys_retain k lo' (u_recv_inputs s4))) as Hsub.
  assert (Hok' : eps_ri_ok (set_recv_inputs ri' (send_input_ack now s4))).
  { unfold eps_ri_ok. rewrite Hri. split; [apply eps_nodup_filter_keys; exact N4|]. split; [exact Ne'|].
    apply Forall_forall. intros k X. rewrite Forall_forall in R4. apply R4. apply Hsub. exact X. }
  split; [exact Hok'|]. split; [exact Hlrf|]. split; [exact E|].
  rewrite Hlrf, Hri.
  assert (Hrange : forall k, In k (eps_keys ri') -> lo' <= k <= last_recv_frame s4).
  { intros k X. destruct (Hsub k X) as (X1 & X2). split; [exact X2|apply M4; exact X1]. }
  split.
  { pose proof (eps_nodup_range_length (eps_keys ri') lo' (last_recv_frame s4)
                  (proj1 Hok') Hrange) as P. rewrite eps_keys_length in P. subst lo'. unfold ibytes in *. lia. }
  split.
  { (* either nothing new survives, or last_recv_frame is a frame of this packet *)
    destruct (Z_le_gt_dec (last_recv_frame s4) (last_recv_frame s3)) as [Hsame|Hnew].
    - left. assert (P : (length (eps_keys ri') <= length (eps_keys (u_recv_inputs s3)))%nat).
      { apply NoDup_incl_length; [exact (proj1 Hok')|].
        intros k X. destruct (Hsub k X) as (X1 & _). unfold eps_keys in X1. apply in_map_iff in X1.
        destruct X1 as ([k0 v] & Ek & X1). cbn in Ek. subst k0.
        destruct (D _ _ X1) as [Y|(Y1 & _)]; [exact (in_map fst _ _ Y)|]. apply eps_in_le_lrf in X1. lia. }
      rewrite !eps_keys_length in P. unfold ibytes in *. exact P.
    - right. unfold eps_keys in K4. apply in_map_iff in K4. destruct K4 as ([k0 v] & Ek & X1). cbn in Ek.
      destruct (D _ _ X1) as [Y|(Y1 & _)]; [apply eps_in_le_lrf in Y|]; lia. }
  split.
  { intros k v X. unfold ri', aretain_ge in X. apply filter_In in X. tauto. }
  intros k v X Hk. unfold ri'. rewrite eps_alookup_retain. assert ((lo' <=? k) = true) as -> by (subst lo'; lia).
  apply eps_alookup_nodup; [exact N4|]. eapply eps_accept_keeps; eauto.
Qed.

Definition eps_core (s : ep) :=
  (u_num_players s, u_handles s, u_max_prediction s, u_desync s, u_magic s,
   u_pending_output s, u_last_acked s, u_peer_status s, u_recv_inputs s, u_pending_checksums s).

Lemma eps_core_fields : forall a b, eps_core a = eps_core b ->
  u_num_players a = u_num_players b /\ u_handles a = u_handles b /\ u_max_prediction a = u_max_prediction b /\
  u_desync a = u_desync b /\ u_magic a = u_magic b /\ u_pending_output a = u_pending_output b /\
  u_last_acked a = u_last_acked b /\ u_peer_status a = u_peer_status b /\ u_recv_inputs a = u_recv_inputs b /\
  u_pending_checksums a = u_pending_checksums b.
Proof. intros a b H. unfold eps_core in H. injection H. auto 12. Qed.

Ltac eps_core_inj H :=
  apply eps_core_fields in H; fs in H; destruct H as (?C1 & ?C2 & ?C3 & ?C4 & ?C5 & ?C6 & ?C7 & ?C8 & ?C9 & ?C10).

Definition eps_dead (s : ep) : Prop := u_state s = PDisconnected \/ u_state s = PShutdown.

Definition eps_appended (k : nat) (s s' : ep) : Prop :=
  exists q, u_send_queue s' = u_send_queue s ++ q /\ (length q <= k)%nat /\
            Forall (fun m => m_magic m = u_magic s) q.

Lemma eps_appended_same : forall k s s', u_send_queue s' = u_send_queue s -> eps_appended k s s'.
Proof. intros k s s' E. exists []. rewrite app_nil_r. split; [exact E|]. split; [cbn; lia|constructor]. Qed.

Lemma eps_appended_one : forall k b s s', (1 <= k)%nat ->
  u_send_queue s' = u_send_queue s ++ [mkMsg (u_magic s) b] -> eps_appended k s s'.
Proof. intros k b s s' L E. eexists [_]. split; [exact E|]. split; [exact L|]. repeat constructor. Qed.

Lemma eps_appended_mono : forall k k' s s', (k <= k')%nat -> eps_appended k s s' -> eps_appended k' s s'.
Proof. intros k k' s s' L (q & A & B & C). exists q. split; [exact A|]. split; [lia|exact C]. Qed.

Lemma eps_poll_running_effect : forall now cs s s',
  poll_running now cs s = Ok s' ->
  eps_core s' = eps_core s /\ u_state s' = u_state s /\ eps_appended 2 s s' /\
  (u_event_sent s = true -> u_event_sent s' = true).
Proof.
  intros now cs s s' H. apply poll_running_inv in H. destruct H as (bs & i & r & L & ->).
  split; [exact eq_refl|]. split; [exact eq_refl|]. split.
  - exists (map (mkMsg (u_magic s)) bs). split; [exact eq_refl|]. split; [rewrite map_length; exact L|].
    apply Forall_forall. intros m X. apply in_map_iff in X. destruct X as (b & <- & _). reflexivity.
  - fs. intros ->. reflexivity.
Qed.

Lemma eps_poll_effect : forall now nonce cs s out s',
  poll now nonce cs s = Ok (out, s') ->
  eps_core s' = eps_core s /\ eps_appended 2 s s' /\
  (u_event_sent s = true -> u_event_sent s' = true) /\
  (u_state s' = u_state s \/ (u_state s = PDisconnected /\ u_state s' = PShutdown)) /\
  u_event_queue s' = [].
Proof.
  intros now nonce cs s out s' H. unfold poll, poll_gen in H. cbv zeta in H.
  change (poll_running_gen current_code) with poll_running in H.
  destruct (u_state s) eqn:Es.
  - inversion H; subst; fs. split; [reflexivity|]. split; [apply eps_appended_same; reflexivity|]. auto.
  - destruct (u_last_sync_request_time s + SYNC_RETRY_INTERVAL <? now); inversion H; subst; fs.
    + split; [reflexivity|]. split; [|auto]. apply (eps_appended_one 2 (SyncRequest nonce)); [lia|reflexivity].
    + split; [reflexivity|]. split; [apply eps_appended_same; reflexivity|]. auto.
  - destruct (poll_running now cs s) as [t| |] eqn:Et; try discriminate.
    apply eps_poll_running_effect in Et. destruct Et as (A & B & C & D).
    inversion H; subst; fs. split; [exact A|]. split; [exact C|]. split; [exact D|]. split; [left; congruence|reflexivity].
  - destruct (u_shutdown_timeout s <? now); inversion H; subst; fs;
      (split; [reflexivity|]; split; [apply eps_appended_same; reflexivity|]; split; [auto|]); split; auto.
  - inversion H; subst; fs. split; [reflexivity|]. split; [apply eps_appended_same; reflexivity|]. auto.
Qed.

Definition eps_interval (s : ep) : Z := match u_desync s with Some i => i | None => 1 end.

(* a report is stored; a full history is first pruned to the frames from frame - 31 * interval on *)
Lemma eps_on_checksum_report_effect : forall dbg c f s s',
  on_checksum_report dbg c f s = Ok s' ->
  exists pcs, s' = set_pending_checksums (ainsert f c pcs) s /\
    ((Z.of_nat (length (u_pending_checksums s)) < MAX_CHECKSUM_HISTORY_SIZE /\ pcs = u_pending_checksums s) \/
     (MAX_CHECKSUM_HISTORY_SIZE <= Z.of_nat (length (u_pending_checksums s)) /\
      exists span lo, ts_i32_arith dbg ((MAX_CHECKSUM_HISTORY_SIZE - 1) * ts_wrap_i32 (eps_interval s)) = Ok span /\
        ts_i32_arith dbg (f - span) = Ok lo /\ pcs = aretain_ge lo (u_pending_checksums s))).
Proof.
  intros dbg c f s s' H. unfold on_checksum_report in H. cbv zeta in H. unfold eps_interval.
  destruct (u_desync s) as [iv|]; [|destruct dbg; [discriminate|]];
    (destruct (MAX_CHECKSUM_HISTORY_SIZE <=? _) eqn:El;
     [destruct (ts_i32_arith _ (_ * _)) as [span| |] eqn:E1; try discriminate;
      destruct (ts_i32_arith _ (f - span)) as [lo| |] eqn:E2; try discriminate|]);
    injection H as <-; eexists; (split; [reflexivity|]);
    [right; split; [lia|eauto]|left; split; [lia|reflexivity]|right; split; [lia|eauto]|left; split; [lia|reflexivity]].
Qed.

(* every packet but Input: of the fields of [eps_core], an InputAck pops pending_output (with last_acked_input) and
   a ChecksumReport stores its checksum; [t] is the state after the bookkeeping of an accepted packet *)
Lemma eps_handle_other_effect : forall dbg now nonce m s s',
  (forall st dr sf af bytes, m_body m <> Input st dr sf af bytes) ->
  handle_message dbg now nonce m s = Ok s' ->
  eps_appended 1 s s' /\ u_event_sent s' = u_event_sent s /\
  (u_state s' = u_state s \/ (u_state s = PSynchronizing /\ u_state s' = PRunning)) /\
  exists p pcs,
    eps_core s' = eps_core (set_pending_checksums pcs (set_last_acked (snd p) (set_pending_output (fst p) s))) /\
    (p = (u_pending_output s, u_last_acked s) \/
     exists f, m_body m = InputAck f /\ p = pop_pending f (u_pending_output s) (u_last_acked s)) /\
    (pcs = u_pending_checksums s \/
     exists c f t, m_body m = ChecksumReport c f /\ on_checksum_report dbg c f t = Ok s' /\ eps_core t = eps_core s).
Proof.
  intros dbg now nonce m s s' Hni H. rewrite eps_handle_unfold in H.
  assert (Same : forall x, eps_core x = eps_core s -> exists p pcs,
            eps_core x = eps_core (set_pending_checksums pcs (set_last_acked (snd p) (set_pending_output (fst p) s))) /\
            (p = (u_pending_output s, u_last_acked s) \/
             exists f, m_body m = InputAck f /\ p = pop_pending f (u_pending_output s) (u_last_acked s)) /\
            (pcs = u_pending_checksums s \/
             exists c f t, m_body m = ChecksumReport c f /\ on_checksum_report dbg c f t = Ok s' /\ eps_core t = eps_core s))
    by (intros x E; exists (u_pending_output s, u_last_acked s), (u_pending_checksums s); auto).
  destruct (passes_filters s m); cbn [negb] in H.
  2:{ injection H as <-. split; [apply eps_appended_same; reflexivity|]. auto. }
  cbv zeta in H. rewrite eps_touch_nf in H.
  pose proof (fun b => eps_appended_one 1 b s s' (le_n 1)) as App.
  destruct (m_body m) as [n|n|st dr sf af bytes|f|adv ping|pong|c f|] eqn:Eb.
  - injection H as <-. split; [apply (App (SyncReply n)); exact eq_refl|]. auto.
  - apply on_sync_reply_inv in H. cbv zeta in H. fs in H.
    destruct (pstate_eqb (u_state s) PSynchronizing && zmem n (u_sync_requests s)) eqn:Em;
      [|subst s'; split; [apply eps_appended_same; exact eq_refl|]; auto].
    apply andb_true_iff in Em. destruct Em as (Es & _). apply pstate_eqb_eq in Es.
    destruct (0 <? _); subst s'.
    + split; [apply (App (SyncRequest nonce)); exact eq_refl|]. auto.
    + split; [apply eps_appended_same; exact eq_refl|]. auto.
  - exfalso. eapply Hni. reflexivity.
  - injection H as <-. rewrite pop_pending_output_nf. cbv zeta. fs.
    split; [apply eps_appended_same; exact eq_refl|]. split; [reflexivity|]. split; [auto|].
    exists (pop_pending f (u_pending_output s) (u_last_acked s)), (u_pending_checksums s). split; [exact eq_refl|]. split; [right; eauto|left; reflexivity].
  - injection H as <-. split; [apply (App (QualityReply ping)); exact eq_refl|]. auto.
  - injection H as <-. split; [apply eps_appended_same; exact eq_refl|]. auto.
  - destruct (on_checksum_report_shape _ _ _ _ _ H) as (pcs & E).
    split; [apply eps_appended_same; rewrite E; exact eq_refl|].
    split; [rewrite E; reflexivity|]. split; [rewrite E; auto|].
    exists (u_pending_output s, u_last_acked s), pcs. split; [rewrite E; exact eq_refl|]. split; [auto|].
    right. eexists c, f, _. split; [reflexivity|]. split; [exact H|exact eq_refl].
  - injection H as <-. split; [apply eps_appended_same; exact eq_refl|]. auto.
Qed.

Lemma eps_pop_pending_length : forall ack po la, (length (fst (pop_pending ack po la)) <= length po)%nat.
Proof.
  induction po as [|x r IH]; intros la; cbn [pop_pending]; [cbn; lia|].
  destruct (fst x <=? ack); [specialize (IH x); cbn [length]; lia|cbn; lia].
Qed.

(* of the fields of [eps_core], an Input packet writes recv_inputs, peer_connect_status and, by its ack_frame,
   pending_output with last_acked_input; it queues at most one InputAck *)
Lemma eps_input_exit_effect : forall dbg now st dr sf af bytes s s',
  eps_input_exit dbg now st dr sf af bytes s s' ->
  u_state s' = u_state s /\ u_remote_magic s' = u_remote_magic s /\
  (u_event_sent s = true -> u_event_sent s' = true) /\
  length (u_peer_status s') = length (u_peer_status s) /\
  eps_core s' = eps_core (set_recv_inputs (u_recv_inputs s') (set_peer_status (u_peer_status s')
                            (set_last_acked (u_last_acked s') (set_pending_output (u_pending_output s') s)))) /\
  ((u_pending_output s', u_last_acked s') = (u_pending_output s, u_last_acked s) \/
   (u_pending_output s', u_last_acked s') = pop_pending af (u_pending_output s) (u_last_acked s)) /\
  (u_send_queue s' = u_send_queue s \/
   exists f, u_send_queue s' = u_send_queue s ++ [mkMsg (u_magic s) (InputAck f)]).
Proof.
  intros dbg now st dr sf af bytes s s' H.
  assert (Hps : forall ps, (if dr then ps = u_peer_status s else merge_status (u_peer_status s) st = Ok ps) ->
                length ps = length (u_peer_status s)).
  { intros ps Hps. destruct dr; [rewrite Hps; reflexivity|].
    pose proof (eps_merge_status_spec (u_peer_status s) st) as X. rewrite Hps in X. exact X. }
  destruct H as [ | |s2 Eh|s2 Eh|s2 ref Eh|s2 ref ins s4 Eh Hs El Ed Ea|s2 ref ins s4 w lo Eh Hs El Ed Ea Ew Elo].
  (* every exit is a term over [s], off which the first five conjuncts are read *)
  all: try (apply eps_header_nf in Eh; rewrite eps_touch_nf in Eh; cbv zeta in Eh; fs in Eh;
            destruct Eh as (ps & Lps & ->); apply Hps in Lps).
  all: try (destruct (accept_inputs_shape _ _ _ _ _ _ _ Ea) as (ri & evs0 & -> & _)).
  all: try rewrite eps_touch_nf; fs.
  all: split; [reflexivity|]; split; [reflexivity|]; split; [first [intros ->; reflexivity|auto]|].
  all: split; [first [exact Lps|reflexivity]|]; split; [exact eq_refl|].
  (* behind the header checks pending_output is popped; the re-ack exit and the complete exit queue an InputAck *)
  1-2: split; left; reflexivity.
  1,3,4: split; [right; symmetry; apply surjective_pairing|left; reflexivity].
  1-2: split; [right; symmetry; apply surjective_pairing|right; eexists; reflexivity].
Qed.

Lemma eps_input_exit_po : forall dbg now st dr sf af bytes s s',
  eps_input_exit dbg now st dr sf af bytes s s' -> (length (u_pending_output s') <= length (u_pending_output s))%nat.
Proof.
  intros dbg now st dr sf af bytes s s' X.
  destruct (eps_input_exit_effect _ _ _ _ _ _ _ _ _ X) as (_ & _ & _ & _ & _ & [A|A] & _);
    apply (f_equal fst) in A; cbn [fst] in A; rewrite A; [lia|apply eps_pop_pending_length].
Qed.

Lemma eps_input_exit_ri : forall dbg now st dr sf af bytes s s',
  eps_input_exit dbg now st dr sf af bytes s s' -> eps_window_ok s -> eps_ri_ok s ->
  eps_ri_ok s' /\ last_recv_frame s <= last_recv_frame s'.
Proof.
  intros dbg now st dr sf af bytes s s' H Hw Hok.
  assert (Hsame : forall t, u_recv_inputs t = u_recv_inputs s -> eps_ri_ok t /\ last_recv_frame s <= last_recv_frame t).
  { intros t E. split; [eapply eps_ri_ok_ext; eauto|]. rewrite (eps_last_recv_frame_ext _ _ E). lia. }
  destruct H as [ | |s2 Eh|s2 Eh|s2 ref Eh|s2 ref ins s4 Eh Hs El Ed Ea|s2 ref ins s4 w lo Eh Hs El Ed Ea Ew Elo].
  1-5: apply Hsame.
  - reflexivity.
  - rewrite eps_touch_nf. reflexivity.
  - apply (eps_header_recv _ _ _ _ _ _ Eh).
  - apply (eps_header_recv _ _ _ _ _ _ Eh).
  - apply (eps_header_recv _ _ _ _ _ _ Eh).
  - destruct (eps_header_recv _ _ _ _ _ _ Eh) as (E1 & _). destruct (eps_header_ri _ _ _ _ _ _ Eh) as (_ & Hok2 & _).
    split; [exact (eps_accept_ri_ok _ _ _ _ _ _ Ea Hs (Hok2 Hok))|].
    destruct (eps_accept_spec _ _ _ _ _ _ _ Ea (eps_start_min _ Hs)) as (_ & _ & _ & _ & E & _).
    rewrite <- (eps_last_recv_frame_ext _ _ E1). exact E.
  - destruct (eps_header_recv _ _ _ _ _ _ Eh) as (E1 & _). destruct (eps_header_ri _ _ _ _ _ _ Eh) as (_ & Hok2 & Hw2).
    destruct (eps_complete_exit_ri dbg now sf ins (set_last_input_recv now s2) s4 w lo ref (Hok2 Hok) (Hw2 Hw) Hs El Ea Ew Elo)
      as (A & B & C & _).
    split; [exact A|]. rewrite B, <- (eps_last_recv_frame_ext _ _ E1). exact C.
Qed.

Definition eps_inv (s : ep) : Prop :=
  eps_wf s /\
  ((PENDING_OUTPUT_SIZE < N.of_nat (length (u_pending_output s)))%N -> u_event_sent s = true) /\
  (eps_window_ok s -> eps_ri_ok s).

Lemma eps_inv_core : forall s s', eps_core s' = eps_core s -> (u_event_sent s = true -> u_event_sent s' = true) ->
  eps_inv s -> eps_inv s'.
Proof.
  intros s s' Hc He (W & P & R). eps_core_inj Hc. unfold eps_inv, eps_wf, eps_window_ok, eps_ri_ok in *.
  rewrite C1, C3, C6, C8, C9. auto.
Qed.

Lemma eps_input_body_dec : forall m, (exists st dr sf af bytes, m_body m = Input st dr sf af bytes) \/
  (forall st dr sf af bytes, m_body m <> Input st dr sf af bytes).
Proof. intro m. destruct (m_body m); try (right; intros; discriminate). left. eauto 6. Qed.

(* every operation but a packet and send_input: the fields of [eps_core] stay; the state stays, becomes
   Disconnected / Shutdown, or (synchronize) leaves Initializing *)
Lemma eps_step_minor : forall dbg o s s' out, step dbg o s = Ok (s', out) ->
  (forall now nonce m, o <> OMessage now nonce m) -> (forall now inputs cs, o <> OSendInput now inputs cs) ->
  eps_core s' = eps_core s /\ (u_event_sent s = true -> u_event_sent s' = true) /\
  (u_state s' = u_state s \/ eps_dead s' \/ u_state s = PInitializing).
Proof.
  intros dbg o s s' out H Hm Hs. apply step_inv in H. unfold eps_dead.
  destruct o as [now nonce|now nonce m|now nonce cs|now inputs cs|now|now fr ck|lf|].
  - destruct H as (H & _). apply synchronize_inv in H. destruct H as (Es & ->). split; [exact eq_refl|]. auto.
  - edestruct Hm; reflexivity.
  - apply eps_poll_effect in H. destruct H as (A & _ & B & [C|(_ & C)] & _); (split; [exact A|]; split; [exact B|]);
      [left; exact C|right; left; right; exact C].
  - edestruct Hs; reflexivity.
  - destruct H as (-> & _). unfold disconnect. destruct (pstate_eqb (u_state s) PShutdown); [auto|].
    split; [exact eq_refl|]. split; [auto|]. right. left. left. reflexivity.
  - destruct H as (-> & _). auto.
  - destruct H as (H & _). apply update_local_frame_advantage_shape in H. destruct H as (a & ->). auto.
  - destruct H as (-> & _). auto.
Qed.

Lemma eps_inv_step : forall dbg o s s' out, eps_inv s -> step dbg o s = Ok (s', out) -> eps_inv s'.
Proof.
  intros dbg o s s' out HI H.
  destruct o as [now nonce|now nonce m|now nonce cs|now inputs cs|now|now fr ck|lf|];
    try (destruct (eps_step_minor _ _ _ _ _ H) as (A & B & _); [discriminate|discriminate|];
         eapply eps_inv_core; eauto; fail);
    apply step_inv in H; destruct H as (E & _); destruct HI as (W & P & R).
  - destruct (eps_input_body_dec m) as [(st & dr & sf & af & bytes & Eb)|Hn].
    + pose proof (eps_input_exits _ _ _ _ _ _ _ _ _ _ _ Eb E) as X.
      destruct (eps_input_exit_effect _ _ _ _ _ _ _ _ _ X) as (_ & _ & A2 & A10 & D & _). eps_core_inj D.
      split; [unfold eps_wf in *; congruence|]. split.
      * intro L. apply A2, P. pose proof (eps_input_exit_po _ _ _ _ _ _ _ _ _ X). lia.
      * unfold eps_window_ok. rewrite C3. intro Hw. exact (proj1 (eps_input_exit_ri _ _ _ _ _ _ _ _ _ X Hw (R Hw))).
    + destruct (eps_handle_other_effect _ _ _ _ _ _ Hn E) as (_ & B & _ & p & pcs & D & Hp & _). eps_core_inj D.
      unfold eps_inv, eps_wf, eps_window_ok, eps_ri_ok in *. rewrite C1, C3, C6, C8, C9, B.
      split; [exact W|]. split; [|exact R]. intro L. apply P.
      destruct Hp as [->|(f & _ & ->)]; [exact L|].
      pose proof (eps_pop_pending_length f (u_pending_output s) (u_last_acked s)). lia.
  - apply send_input_inv in E. destruct (pstate_eqb (u_state s) PRunning); [|subst s'; exact (conj W (conj P R))].
    cbv zeta in E. destruct E as (data & ts & f & _ & _ & ->). split; [exact W|]. split; [|exact R].
    fs. intro L. apply N.ltb_lt in L. rewrite L. apply orb_true_r.
Qed.

Lemma eps_run_app : forall dbg a b s s' evs,
  run dbg s (a ++ b) = Ok (s', evs) ->
  exists s1 e1 e2, run dbg s a = Ok (s1, e1) /\ run dbg s1 b = Ok (s', e2) /\ evs = e1 ++ e2.
Proof.
  induction a as [|o a IH]; intros b s s' evs H; cbn [app] in H.
  - exists s, [], evs. split; [reflexivity|]. auto.
  - apply run_cons in H. destruct H as (s1 & e1 & e2 & H1 & H2 & ->).
    apply IH in H2. destruct H2 as (s2 & e3 & e4 & H3 & H4 & ->).
    exists s2, (e1 ++ e3), e4. split; [|split; [exact H4|apply app_assoc]].
    unfold run in *. cbn [run_gen]. change (step_gen current_code) with step. rewrite H1, H3. reflexivity.
Qed.

Lemma eps_inv_run : forall dbg ops s s' evs, eps_inv s -> run dbg s ops = Ok (s', evs) -> eps_inv s'.
Proof.
  induction ops as [|o r IH]; intros s s' evs HI H.
  - inversion H; subst. exact HI.
  - apply run_cons in H. destruct H as (s1 & e1 & e2 & H1 & H2 & _).
    eapply IH; [|exact H2]. eapply eps_inv_step; eauto.
Qed.

Lemma eps_inv_new : forall now magic handles np lp mp timeout notify fps desync,
  eps_inv (ep_new now magic handles np lp mp timeout notify fps desync).
Proof.
  intros. unfold eps_inv, eps_wf, eps_ri_ok. cbn. split; [apply repeat_length|]. split; [intro X; exfalso; revert X; vm_compute; discriminate|].
  intros _. split; [constructor; [intros []|constructor]|]. split; [discriminate|].
  constructor; [unfold NULL, TS_I32_MAX; lia|constructor].
Qed.

Lemma eps_reach_inv : forall now magic handles np lp mp timeout notify fps desync dbg ops s evs,
  run dbg (ep_new now magic handles np lp mp timeout notify fps desync) ops = Ok (s, evs) -> eps_inv s.
Proof. intros. eapply eps_inv_run; [apply eps_inv_new|eauto]. Qed.

(* send_queue: emptied by drain (send_all_messages); otherwise at most two messages per operation are
   appended (nothing is ever removed or reordered), all under the endpoint's own magic *)
Lemma eps_send_queue_step : forall dbg o s s' out, step dbg o s = Ok (s', out) ->
  match o with ODrain => u_send_queue s' = [] | _ => eps_appended 2 s s' end.
Proof.
  intros dbg o s s' out H. apply step_inv in H.
  destruct o as [now nonce|now nonce m|now nonce cs|now inputs cs|now|now fr ck|lf|].
  - destruct H as (E & _). apply synchronize_inv in E. destruct E as (_ & ->).
    apply (eps_appended_one 2 (SyncRequest nonce)); [lia|reflexivity].
  - destruct H as (E & _). destruct (eps_input_body_dec m) as [(st & dr & sf & af & bytes & Eb)|Hn].
    + pose proof (eps_input_exits _ _ _ _ _ _ _ _ _ _ _ Eb E) as X.
      destruct (eps_input_exit_effect _ _ _ _ _ _ _ _ _ X) as (_ & _ & _ & _ & _ & _ & [A|(f & A)]).
      * apply eps_appended_same. exact A.
      * apply (eps_appended_one 2 (InputAck f)); [lia|exact A].
    + destruct (eps_handle_other_effect _ _ _ _ _ _ Hn E) as (A & _). eapply eps_appended_mono; [|exact A]. lia.
  - apply eps_poll_effect in H. tauto.
  - destruct H as (E & _). apply send_input_inv in E.
    destruct (pstate_eqb (u_state s) PRunning); [|subst s'; apply eps_appended_same; reflexivity].
    cbv zeta in E. destruct E as (data & ts & f & _ & _ & ->). eapply (eps_appended_one 2); [lia|exact eq_refl].
  - destruct H as (-> & _). apply eps_appended_same.
    unfold disconnect. destruct (pstate_eqb (u_state s) PShutdown); reflexivity.
  - destruct H as (-> & _). eapply (eps_appended_one 2); [lia|exact eq_refl].
  - destruct H as (E & _). apply update_local_frame_advantage_shape in E. destruct E as (a & ->).
    apply eps_appended_same. reflexivity.
  - destruct H as (-> & _). reflexivity.
Qed.

Definition eps_is_send (o : op) : bool := match o with OSendInput _ _ _ => true | _ => false end.
Definition eps_count_sends (ops : list op) : nat := length (filter eps_is_send ops).

(* only send_input lets pending_output grow, by one entry, and only at a Running endpoint; the state
   Disconnected / Shutdown is never left *)
Lemma eps_pending_output_step : forall dbg o s s' out, step dbg o s = Ok (s', out) ->
  (length (u_pending_output s') <= length (u_pending_output s) + (if eps_is_send o then 1 else 0))%nat /\
  (eps_dead s -> eps_dead s' /\ (length (u_pending_output s') <= length (u_pending_output s))%nat).
Proof.
  intros dbg o s s' out H.
  assert (Hle : (length (u_pending_output s') <= length (u_pending_output s))%nat ->
                u_state s' = u_state s \/ eps_dead s' \/ ~ eps_dead s ->
                (length (u_pending_output s') <= length (u_pending_output s) + (if eps_is_send o then 1 else 0))%nat /\
                (eps_dead s -> eps_dead s' /\ (length (u_pending_output s') <= length (u_pending_output s))%nat)).
  { intros L C. split; [lia|]. intro D. split; [|exact L]. unfold eps_dead in *.
    destruct C as [C|[C|C]]; [rewrite C; exact D|exact C|contradiction]. }
  destruct o as [now nonce|now nonce m|now nonce cs|now inputs cs|now|now fr ck|lf|];
    try (destruct (eps_step_minor _ _ _ _ _ H) as (A & _ & C); [discriminate|discriminate|]; eps_core_inj A;
         apply Hle; [rewrite C6; lia|]; destruct C as [C|[C|C]]; [auto|auto|];
         right; right; intros [D|D]; congruence);
    apply step_inv in H; destruct H as (E & _).
  - destruct (eps_input_body_dec m) as [(st & dr & sf & af & bytes & Eb)|Hn].
    + pose proof (eps_input_exits _ _ _ _ _ _ _ _ _ _ _ Eb E) as X.
      apply Hle; [exact (eps_input_exit_po _ _ _ _ _ _ _ _ _ X)|left; apply (eps_input_exit_effect _ _ _ _ _ _ _ _ _ X)].
    + destruct (eps_handle_other_effect _ _ _ _ _ _ Hn E) as (_ & _ & C & p & pcs & D & Hp & _). eps_core_inj D.
      apply Hle.
      * rewrite C6. destruct Hp as [->|(f & _ & ->)]; [cbn [fst]; lia|apply eps_pop_pending_length].
      * destruct C as [C|(C & _)]; [auto|]. right. right. intros [D|D]; congruence.
  - apply send_input_inv in E. destruct (pstate_eqb (u_state s) PRunning) eqn:Er; [|subst s'; apply Hle; [lia|auto]].
    apply pstate_eqb_eq in Er. cbv zeta in E. destruct E as (data & ts & f & _ & _ & ->).
    fs. rewrite app_length. cbn [length eps_is_send]. split; [lia|]. intros [D|D]; congruence.
Qed.

Lemma eps_pending_output_run : forall dbg ops s s' evs, run dbg s ops = Ok (s', evs) ->
  (length (u_pending_output s') <= length (u_pending_output s) + eps_count_sends ops)%nat /\
  (eps_dead s -> eps_dead s' /\ (length (u_pending_output s') <= length (u_pending_output s))%nat).
Proof.
  induction ops as [|o r IH]; intros s s' evs H.
  - inversion H; subst. cbn. split; [lia|]. intro D. split; [exact D|lia].
  - apply run_cons in H. destruct H as (s1 & e1 & e2 & H1 & H2 & _).
    destruct (eps_pending_output_step _ _ _ _ _ H1) as (A & B). destruct (IH _ _ _ H2) as (C & D).
    unfold eps_count_sends in *. cbn [filter]. split.
    + destruct (eps_is_send o); cbn [length]; lia.
    + intro X. destruct (B X) as (B1 & B2). destruct (D B1) as (D1 & D2). split; [exact D1|lia].
Qed.

(* the bound: while Disconnected has not been raised there are at most PENDING_OUTPUT_SIZE entries; if the
   caller answers the event with `disconnect` (as the sessions do), the number of entries never exceeds
   PENDING_OUTPUT_SIZE + the number of send_input calls made between a state without the event and the
   disconnect call *)
Lemma eps_pending_output_bound : forall dbg s ops1 now ops2 s' evs,
  eps_inv s -> u_event_sent s = false ->
  run dbg s (ops1 ++ ODisconnect now :: ops2) = Ok (s', evs) ->
  (length (u_pending_output s') <= N.to_nat PENDING_OUTPUT_SIZE + eps_count_sends ops1)%nat.
Proof.
  intros dbg s ops1 now ops2 s' evs (_ & P & _) He H.
  apply eps_run_app in H. destruct H as (s1 & e1 & e2 & H1 & H2 & _).
  apply run_cons in H2. destruct H2 as (s2 & e3 & e4 & H3 & H4 & _).
  destruct (eps_pending_output_run _ _ _ _ _ H1) as (A & _).
  destruct (eps_pending_output_step _ _ _ _ _ H3) as (B & _). cbn [eps_is_send] in B.
  assert (D2 : eps_dead s2).
  { apply step_inv in H3. destruct H3 as (-> & _). unfold disconnect, eps_dead.
    destruct (pstate_eqb (u_state s1) PShutdown) eqn:Es; [apply pstate_eqb_eq in Es; auto|auto]. }
  destruct (eps_pending_output_run _ _ _ _ _ H4) as (_ & C). destruct (C D2) as (_ & C2).
  assert (L : (length (u_pending_output s) <= N.to_nat PENDING_OUTPUT_SIZE)%nat).
  { destruct (N.ltb PENDING_OUTPUT_SIZE (N.of_nat (length (u_pending_output s)))) eqn:X.
    - apply N.ltb_lt in X. rewrite (P X) in He. discriminate.
    - apply N.ltb_ge in X. lia. }
  lia.
Qed.

(* an operation none of whose decoded frames has the wrong size (every genuine packet) *)
Definition eps_shaped (dbg : bool) (nh : nat) (o : op) : Prop :=
  match o with
  | OMessage _ _ m =>
    match m_body m with
    | Input _ _ _ _ bytes =>
      forall ref inputs, Codec.decode dbg ref bytes = Ok inputs ->
                         Forall (fun i => to_player_inputs nh i <> None) inputs
    | _ => True
    end
  | _ => True
  end.

(* one entry per decoded frame at most, and a packet decodes to at most MAX_DECODED_INPUTS frames (decode_bounded) *)
Lemma eps_accept_grows : forall dbg ref bytes ins sf s b s', Codec.decode dbg ref bytes = Ok ins -> 0 <= sf ->
  accept_inputs dbg sf 0 ins s = Ok (b, s') ->
  (length (u_recv_inputs s') <= length (u_recv_inputs s) + N.to_nat MAX_DECODED_INPUTS)%nat.
Proof.
  intros dbg ref bytes ins sf s b s' Ed Hs Ea.
  destruct (eps_accept_spec _ _ _ _ _ _ _ Ea (eps_start_min _ Hs)) as (_ & _ & _ & _ & _ & F & _).
  destruct (decode_bounded eps_cap_ok _ _ _ _ Ed) as (_ & _ & Hn). lia.
Qed.

Definition eps_ri_bound (s : ep) : Z := Z.max (2 * u_max_prediction s) (Z.of_N MAX_DECODED_INPUTS) + 1.

(* per operation: recv_inputs changes only in handle_message(Input) and grows by at most
   MAX_DECODED_INPUTS entries; with well-sized frames it stays within the bound *)
Lemma eps_recv_inputs_step : forall dbg o s s' out, step dbg o s = Ok (s', out) ->
  (length (u_recv_inputs s') <= length (u_recv_inputs s) + N.to_nat MAX_DECODED_INPUTS)%nat /\
  u_handles s' = u_handles s /\ u_max_prediction s' = u_max_prediction s /\
  (eps_inv s -> eps_window_ok s -> eps_shaped dbg (length (u_handles s)) o ->
   Z.of_nat (length (u_recv_inputs s)) <= eps_ri_bound s -> Z.of_nat (length (u_recv_inputs s')) <= eps_ri_bound s).
Proof.
  intros dbg o s s' out H.
  assert (Hsame : u_recv_inputs s' = u_recv_inputs s -> u_handles s' = u_handles s ->
            u_max_prediction s' = u_max_prediction s ->
     (length (u_recv_inputs s') <= length (u_recv_inputs s) + N.to_nat MAX_DECODED_INPUTS)%nat /\
     u_handles s' = u_handles s /\ u_max_prediction s' = u_max_prediction s /\
     (eps_inv s -> eps_window_ok s -> eps_shaped dbg (length (u_handles s)) o ->
      Z.of_nat (length (u_recv_inputs s)) <= eps_ri_bound s -> Z.of_nat (length (u_recv_inputs s')) <= eps_ri_bound s))
    by (intros A B C; rewrite A; split; [lia|auto]).
  destruct o as [now nonce|now nonce m|now nonce cs|now inputs cs|now|now fr ck|lf|];
    try (destruct (eps_step_minor _ _ _ _ _ H) as (A & _); [discriminate|discriminate|]; eps_core_inj A; auto; fail);
    apply step_inv in H; destruct H as (E & _).
  - destruct (eps_input_body_dec m) as [(st & dr & sf & af & bytes & Eb)|Hn].
    2:{ destruct (eps_handle_other_effect _ _ _ _ _ _ Hn E) as (_ & _ & _ & p & pcs & D & _). eps_core_inj D. auto. }
    pose proof (eps_input_exits _ _ _ _ _ _ _ _ _ _ _ Eb E) as X.
    destruct (eps_input_exit_effect _ _ _ _ _ _ _ _ _ X) as (_ & _ & _ & _ & D & _). eps_core_inj D.
    destruct X as [ | |s2 Eh|s2 Eh|s2 ref Eh|s2 ref ins s4 Eh Hs El Ed Ea|s2 ref ins s4 w lo Eh Hs El Ed Ea Ew Elo].
    1-5: apply Hsame; [|exact C2|exact C3].
    + reflexivity.
    + rewrite eps_touch_nf. reflexivity.
    + apply (eps_header_recv _ _ _ _ _ _ Eh).
    + apply (eps_header_recv _ _ _ _ _ _ Eh).
    + apply (eps_header_recv _ _ _ _ _ _ Eh).
    + (* the wrong-size exit skips the pruning; well-sized traffic does not take it *)
      split; [rewrite <- (proj1 (eps_header_recv _ _ _ _ _ _ Eh)); exact (eps_accept_grows _ _ _ _ _ _ _ _ Ed Hs Ea)|].
      split; [exact C2|]. split; [exact C3|]. intros _ _ Hsh _. exfalso.
      cbn [eps_shaped] in Hsh. rewrite Eb in Hsh.
      destruct (eps_accept_false _ _ _ _ _ _ Ea) as (pre & bad & post & fr & E1 & _ & _ & _ & E5).
      specialize (Hsh _ _ Ed). rewrite Forall_forall in Hsh. rewrite C2 in E5.
      apply (Hsh bad); [rewrite E1; apply in_app_iff; right; left; reflexivity|exact E5].
    + pose proof (eps_accept_grows _ _ _ _ _ _ _ _ Ed Hs Ea) as F. fs in F.
      rewrite (proj1 (eps_header_recv _ _ _ _ _ _ Eh)) in F.
      split.
      { fs. pose proof (eps_filter_length (fun kv : Z * list N => Z.min lo (sf - 1) <=? fst kv) (u_recv_inputs s4)) as FL.
        unfold aretain_ge. unfold ibytes in *. lia. }
      split; [exact C2|]. split; [exact C3|]. intros (_ & _ & R) Hw _ Hb.
      destruct (eps_header_recv _ _ _ _ _ _ Eh) as (Eri & _ & Emp). destruct (eps_header_ri _ _ _ _ _ _ Eh) as (_ & Hok2 & Hw2).
      destruct (eps_complete_exit_ri dbg now sf ins (set_last_input_recv now s2) s4 w lo ref (Hok2 (R Hw)) (Hw2 Hw) Hs El Ea Ew Elo)
        as (_ & _ & _ & B1 & B2 & _).
      cbv zeta in B1, B2. fs in B1. fs in B2. rewrite Emp in B1. rewrite Eri in B2.
      destruct (decode_bounded eps_cap_ok _ _ _ _ Ed) as (_ & _ & Hn).
      unfold eps_ri_bound in *. fs. destruct B2 as [B2|B2]; unfold ibytes in *; lia.
  - apply send_input_inv in E. destruct (pstate_eqb (u_state s) PRunning); [|subst s'; auto].
    cbv zeta in E. destruct E as (data & ts & f & _ & _ & ->). auto.
Qed.

Lemma eps_recv_inputs_run : forall dbg ops s s' evs,
  run dbg s ops = Ok (s', evs) -> eps_inv s -> eps_window_ok s ->
  Forall (eps_shaped dbg (length (u_handles s))) ops ->
  Z.of_nat (length (u_recv_inputs s)) <= eps_ri_bound s ->
  Z.of_nat (length (u_recv_inputs s')) <= eps_ri_bound s.
Proof.
  induction ops as [|o r IH]; intros s s' evs H HI Hw Hsh Hb.
  - inversion H; subst. exact Hb.
  - apply run_cons in H. destruct H as (s1 & e1 & e2 & H1 & H2 & _).
    inversion Hsh as [|? ? Ho Hr]; subst.
    destruct (eps_recv_inputs_step _ _ _ _ _ H1) as (_ & A & B & C).
    assert (Eb : eps_ri_bound s1 = eps_ri_bound s) by (unfold eps_ri_bound; rewrite B; reflexivity).
    rewrite <- Eb. eapply IH; [exact H2|eapply eps_inv_step; eauto| | |].
    + unfold eps_window_ok in *. rewrite B. exact Hw.
    + rewrite A. exact Hr.
    + rewrite Eb. apply C; assumption.
Qed.

(* forged by the authorized peer: packets that end in a wrong-size frame are never pruned.
   Window 0; 20 packets of [good; good; 3 bytes], each starting at last_recv_frame + 1: 41 entries *)
Definition eps_w_new0 : ep := ep_new 0 9 [1] 2 1 0 2000 500 60 None.
Definition eps_w_bad_packet (k : nat) : op :=
  OMessage 0 200 (mkMsg 7 (Input w_status false (2 * Z.of_nat k) (-1)
     (Codec.encode (match k with O => [0;0;0;0]%N | _ => [1;0;0;0]%N end) [[1;0;0;0]%N; [1;0;0;0]%N; [7;7;7]%N]))).
Definition eps_w_grow : list op := w_handshake ++ map eps_w_bad_packet (seq 0 20).

Definition EPS_MAX_INTERVAL : Z := 67108864.   (* 2^26: 31 * interval stays an i32 *)

(* reports arrive in order: the frame of each handled report is non-negative and not below any stored frame *)
Fixpoint eps_reports_in_order (dbg : bool) (s : ep) (ops : list op) : Prop :=
  match ops with
  | [] => True
  | o :: r =>
    match o with
    | OMessage _ _ m =>
      match m_body m with
      | ChecksumReport _ f => 0 <= f <= TS_I32_MAX /\ Forall (fun k => k <= f) (eps_keys (u_pending_checksums s))
      | _ => True
      end
    | _ => True
    end /\
    match step dbg o s with
    | Ok (s1, _) => eps_reports_in_order dbg s1 r
    | _ => True
    end
  end.

Definition eps_pcs_ok (s : ep) : Prop :=
  NoDup (eps_keys (u_pending_checksums s)) /\
  Z.of_nat (length (u_pending_checksums s)) <= Z.max MAX_CHECKSUM_HISTORY_SIZE (31 * eps_interval s + 1).

Lemma eps_pcs_step : forall dbg o s s' out, step dbg o s = Ok (s', out) ->
  u_desync s' = u_desync s /\
  (Z.of_nat (length (u_pending_checksums s')) <= Z.of_nat (length (u_pending_checksums s)) + 1) /\
  (1 <= eps_interval s <= EPS_MAX_INTERVAL ->
   match o with
   | OMessage _ _ m =>
     match m_body m with
     | ChecksumReport _ f => 0 <= f <= TS_I32_MAX /\ Forall (fun k => k <= f) (eps_keys (u_pending_checksums s))
     | _ => True
     end
   | _ => True
   end -> eps_pcs_ok s -> eps_pcs_ok s').
Proof.
  intros dbg o s s' out H.
  assert (Hsame : u_pending_checksums s' = u_pending_checksums s -> u_desync s' = u_desync s ->
     forall P : Prop, u_desync s' = u_desync s /\
     (Z.of_nat (length (u_pending_checksums s')) <= Z.of_nat (length (u_pending_checksums s)) + 1) /\
     (1 <= eps_interval s <= EPS_MAX_INTERVAL -> P -> eps_pcs_ok s -> eps_pcs_ok s')).
  { intros A B P. split; [exact B|]. split; [rewrite A; lia|]. intros _ _ X. unfold eps_pcs_ok, eps_interval in *.
    rewrite A, B. exact X. }
  destruct o as [now nonce|now nonce m|now nonce cs|now inputs cs|now|now fr ck|lf|];
    try (destruct (eps_step_minor _ _ _ _ _ H) as (A & _); [discriminate|discriminate|];
         eps_core_inj A; apply Hsame; assumption);
    apply step_inv in H; destruct H as (E & _).
  - destruct (eps_input_body_dec m) as [(st & dr & sf & af & bytes & Eb)|Hn].
    { pose proof (eps_input_exits _ _ _ _ _ _ _ _ _ _ _ Eb E) as X.
      destruct (eps_input_exit_effect _ _ _ _ _ _ _ _ _ X) as (_ & _ & _ & _ & D & _). eps_core_inj D.
      apply Hsame; assumption. }
    destruct (eps_handle_other_effect _ _ _ _ _ _ Hn E) as (_ & _ & _ & p & pcs & D & _ & [->|(c & f & t & Eb & D1 & D2)]).
    { eps_core_inj D. apply Hsame; assumption. }
    clear D. rewrite Eb.
    assert (Et : u_pending_checksums t = u_pending_checksums s /\ u_desync t = u_desync s) by (eps_core_inj D2; auto).
    destruct Et as (Ep & Ed). destruct (eps_on_checksum_report_effect _ _ _ _ _ D1) as (pcs0 & -> & Hc).
    unfold eps_pcs_ok, eps_interval in *. fs. rewrite Ed, Ep in *. clear D1 D2.
    assert (Hins : forall l : list (Z * Z), Z.of_nat (length (ainsert f c l)) <= Z.of_nat (length l) + 1).
    { intro l. unfold ainsert. cbn [length]. pose proof (@eps_aremove_length Z f l). lia. }
    split; [reflexivity|]. split.
    { destruct Hc as [(_ & ->)|(_ & span & lo & _ & _ & ->)]; [apply Hins|].
      specialize (Hins (aretain_ge lo (u_pending_checksums s))).
      pose proof (eps_filter_length (fun kv : Z * Z => lo <=? fst kv) (u_pending_checksums s)). unfold aretain_ge in *. lia. }
    intros Hi (Hf & Hord) (Nd & Hb). destruct Hc as [(Hlt & ->)|(Hge & span & lo & E1 & E2 & ->)].
    + split; [apply eps_nodup_ainsert; exact Nd|].
      specialize (Hins (u_pending_checksums s)). unfold MAX_CHECKSUM_HISTORY_SIZE in *. lia.
    + (* the arithmetic is exact: the history is pruned to the frames of [f - 31 * interval, f], which are distinct *)
      set (iv := match u_desync s with Some i => i | None => 1 end) in *.
      unfold EPS_MAX_INTERVAL, MAX_CHECKSUM_HISTORY_SIZE in *.
      rewrite (eps_wrap_small iv) in E1 by (unfold TS_I32_MIN, TS_I32_MAX; lia).
      rewrite (eps_i32_exact dbg ((32 - 1) * iv)) in E1 by (unfold TS_I32_MIN, TS_I32_MAX; lia).
      assert (span = (32 - 1) * iv) by congruence. subst span. change ((32 - 1) * iv) with (31 * iv) in *.
      rewrite (eps_i32_exact dbg (f - 31 * iv)) in E2 by (unfold TS_I32_MIN, TS_I32_MAX in *; lia).
      assert (lo = f - 31 * iv) by congruence. subst lo.
      set (l' := ainsert f c (aretain_ge (f - 31 * iv) (u_pending_checksums s))).
      assert (Nd' : NoDup (eps_keys l')) by (apply eps_nodup_ainsert, eps_nodup_filter_keys; exact Nd).
      split; [exact Nd'|].
      assert (Hr : forall k, In k (eps_keys l') -> f - 31 * iv <= k <= f).
      { intros k X. apply eps_keys_ainsert in X. destruct X as [->|X]; [lia|].
        apply eps_keys_retain in X. destruct X as (X1 & X2). rewrite Forall_forall in Hord. specialize (Hord k X1). lia. }
      pose proof (eps_nodup_range_length _ _ _ Nd' Hr) as P. rewrite eps_keys_length in P. lia.
  - apply send_input_inv in E. destruct (pstate_eqb (u_state s) PRunning); [|subst s'; apply Hsame; reflexivity].
    cbv zeta in E. destruct E as (data & ts & f & _ & _ & ->). apply Hsame; reflexivity.
Qed.

Lemma eps_pcs_run : forall dbg ops s s' evs,
  run dbg s ops = Ok (s', evs) -> 1 <= eps_interval s <= EPS_MAX_INTERVAL ->
  eps_reports_in_order dbg s ops -> eps_pcs_ok s -> eps_pcs_ok s' /\ eps_interval s' = eps_interval s.
Proof.
  induction ops as [|o r IH]; intros s s' evs H Hi Ho Hok.
  - inversion H; subst. auto.
  - apply run_cons in H. destruct H as (s1 & e1 & e2 & H1 & H2 & _).
    cbn [eps_reports_in_order] in Ho. destruct Ho as (Ho1 & Ho2). rewrite H1 in Ho2.
    destruct (eps_pcs_step _ _ _ _ _ H1) as (A & _ & C).
    assert (Ei : eps_interval s1 = eps_interval s) by (unfold eps_interval; rewrite A; reflexivity).
    destruct (IH s1 s' e2 H2) as (X & Y); [rewrite Ei; exact Hi|exact Ho2|apply C; assumption|].
    split; [exact X|congruence].
Qed.

(* forged by the authorized peer: 40 reports with strictly decreasing frames are all kept *)
Definition eps_w_new_ds : ep := ep_new 0 9 [1] 2 1 8 2000 500 60 (Some 1).
Definition eps_w_reports : list op :=
  w_handshake ++ map (fun k => OMessage 0 200 (mkMsg 7 (ChecksumReport 7 (1000 - Z.of_nat k)))) (seq 0 40).

(* what a sequence of polls at the given clock readings pushes while no packet is accepted:
   [T] = last_recv_time, [n] / [e] = disconnect_notify_sent / disconnect_event_sent *)
Fixpoint eps_silent_events (T ns to : Z) (n e : bool) (times : list Z) : list event :=
  match times with
  | [] => []
  | now :: r =>
    let i := negb n && negb e && (T + ns <? now) in
    let d := negb e && (T + to <? now) in
    (if i then [EvNetworkInterrupted (Z.max 0 (to - ns))] else []) ++ (if d then [EvDisconnected] else []) ++
    eps_silent_events T ns to (n || i) (e || d) r
  end.

Definition eps_poll_ops (polls : list (Z * Z * list status)) : list op :=
  map (fun p => OPoll (fst (fst p)) (snd (fst p)) (snd p)) polls.
Definition eps_poll_times (polls : list (Z * Z * list status)) : list Z := map (fun p => fst (fst p)) polls.

Lemma eps_silence_run : forall dbg polls s s' evs,
  u_state s = PRunning -> run dbg s (eps_poll_ops polls) = Ok (s', evs) ->
  evs = (match polls with [] => [] | _ => u_event_queue s end) ++
        eps_silent_events (u_last_recv_time s) (u_notify_start s) (u_timeout s) (u_notify_sent s) (u_event_sent s)
                          (eps_poll_times polls) /\
  u_state s' = PRunning /\ u_last_recv_time s' = u_last_recv_time s /\
  (polls <> [] -> u_event_queue s' = []).
Proof.
  induction polls as [|[[now nonce] cs] r IH]; intros s s' evs Hr H; cbn [eps_poll_ops eps_poll_times map] in *.
  - inversion H; subst. cbn. repeat split; try assumption. intro X. congruence.
  - apply run_cons in H. destruct H as (s1 & e1 & e2 & H1 & H2 & ->). cbn [fst snd] in *.
    apply step_inv in H1. rename H1 into E. apply poll_effect in E. rewrite Hr in E. destruct E as (Q & NS & TO & L & _ & _ & S1 & _ & N1 & E1 & O1).
    destruct (IH _ _ _ S1 H2) as (A & B & C & D). rewrite Q, NS, TO, L, N1, E1 in A.
    split; [|split; [exact B|split; [congruence|]]].
    + rewrite A, O1. unfold poll_pushed. cbn [eps_silent_events]. fold (interrupt_now now s). fold (timeout_now now s).
      cbv zeta. unfold interrupt_now at 1 2, timeout_now at 1 2.
      destruct r; cbn [app]; rewrite <- !app_assoc; reflexivity.
    + intros _. destruct r as [|p r]; [inversion H2; subst; exact Q|apply D; discriminate].
Qed.

Definition eps_is_interrupted (e : event) : bool := match e with EvNetworkInterrupted _ => true | _ => false end.
Definition eps_count_interrupted (evs : list event) : nat := length (filter eps_is_interrupted evs).

Lemma eps_silent_at_most_once : forall T ns to times n e,
  (eps_count_interrupted (eps_silent_events T ns to n e times) <= (if n || e then 0 else 1))%nat /\
  (count_disconnected (eps_silent_events T ns to n e times) <= (if e then 0 else 1))%nat.
Proof.
  induction times as [|now r IH]; intros n e; cbn [eps_silent_events]; [cbn; destruct (n || e), e; lia|].
  cbv zeta. specialize (IH (n || negb n && negb e && (T + ns <? now)) (e || negb e && (T + to <? now))).
  revert IH. unfold eps_count_interrupted, count_disconnected.
  destruct n, e, (T + ns <? now), (T + to <? now); cbn; lia.
Qed.

Lemma eps_silent_not_early : forall T ns to times n e,
  (Forall (fun now => now <= T + ns) times ->
   eps_count_interrupted (eps_silent_events T ns to n e times) = 0%nat) /\
  (Forall (fun now => now <= T + to) times ->
   count_disconnected (eps_silent_events T ns to n e times) = 0%nat).
Proof.
  induction times as [|now r IH]; intros n e; cbn [eps_silent_events]; [split; reflexivity|].
  cbv zeta. destruct (IH (n || negb n && negb e && (T + ns <? now)) (e || negb e && (T + to <? now))) as (A & B).
  unfold eps_count_interrupted, count_disconnected in *.
  split; intro F; inversion F as [|? ? F1 F2]; subst; [specialize (A F2); revert A|specialize (B F2); revert B];
    destruct n, e, (T + ns <? now) eqn:E1, (T + to <? now) eqn:E2; cbn; lia.
Qed.

Lemma eps_silent_app : forall T ns to a b n e,
  exists n' e', eps_silent_events T ns to n e (a ++ b) =
                eps_silent_events T ns to n e a ++ eps_silent_events T ns to n' e' b /\
    (Forall (fun now => now <= T + ns /\ now <= T + to) a -> n' = n /\ e' = e) /\
    (Forall (fun now => now <= T + to) a -> e' = e).
Proof.
  induction a as [|now r IH]; intros b n e; cbn [app eps_silent_events].
  - exists n, e. split; [reflexivity|]. auto.
  - cbv zeta. set (i := negb n && negb e && (T + ns <? now)). set (d := negb e && (T + to <? now)).
    destruct (IH b (n || i) (e || d)) as (n' & e' & A & B & C). exists n', e'. split.
    + rewrite A, <- !app_assoc. reflexivity.
    + split; intro F; inversion F as [|? ? F1 F2]; subst.
      * destruct (B F2) as (-> & ->). subst i d.
        assert ((T + ns <? now) = false) as -> by lia. assert ((T + to <? now) = false) as -> by lia.
        rewrite !andb_false_r, !orb_false_r. auto.
      * rewrite (C F2). subst d. assert ((T + to <? now) = false) as -> by lia.
        rewrite andb_false_r, orb_false_r. reflexivity.
Qed.

Lemma eps_silent_interrupted_on_time : forall T ns to before now after,
  Forall (fun t => t <= T + ns /\ t <= T + to) before -> T + ns < now ->
  eps_silent_events T ns to false false (before ++ now :: after) =
    EvNetworkInterrupted (Z.max 0 (to - ns)) ::
    (if T + to <? now then [EvDisconnected] else []) ++
    eps_silent_events T ns to true (T + to <? now) after /\
  eps_count_interrupted (eps_silent_events T ns to true (T + to <? now) after) = 0%nat.
Proof.
  intros T ns to before now after F Hn.
  destruct (eps_silent_app T ns to before (now :: after) false false) as (n' & e' & A & B & _).
  destruct (B F) as (-> & ->). rewrite A.
  assert (eps_silent_events T ns to false false before = []) as ->.
  { clear A B. induction before as [|t r IH]; [reflexivity|]. inversion F as [|? ? F1 F2]; subst.
    cbn [eps_silent_events]. cbv zeta. cbn [negb andb].
    assert ((T + ns <? t) = false) as -> by lia. assert ((T + to <? t) = false) as -> by lia.
    cbn [app orb]. apply IH. exact F2. }
  cbn [app eps_silent_events]. cbv zeta. cbn [negb andb orb].
  assert ((T + ns <? now) = true) as -> by lia. cbn [app]. split; [reflexivity|].
  pose proof (eps_silent_at_most_once T ns to after true (T + to <? now)) as (X & _). cbn [orb] in X. lia.
Qed.

Lemma eps_silent_disconnected_on_time : forall T ns to before now after n,
  Forall (fun t => t <= T + to) before -> T + to < now ->
  exists pre n', eps_silent_events T ns to n false (before ++ now :: after) =
    pre ++ EvDisconnected :: eps_silent_events T ns to n' true after /\
    count_disconnected pre = 0%nat /\
    count_disconnected (eps_silent_events T ns to n' true after) = 0%nat /\
    eps_count_interrupted (eps_silent_events T ns to n' true after) = 0%nat.
Proof.
  intros T ns to before now after n F Hn.
  destruct (eps_silent_app T ns to before (now :: after) n false) as (n' & e' & A & _ & C).
  rewrite (C F) in A. rewrite A. cbn [eps_silent_events]. cbv zeta. cbn [negb andb orb].
  assert ((T + to <? now) = true) as -> by lia. cbn [app andb]. rewrite !andb_true_r.
  set (i := negb n' && (T + ns <? now)).
  exists (eps_silent_events T ns to n false before ++ (if i then [EvNetworkInterrupted (Z.max 0 (to - ns))] else [])), (n' || i).
  split; [rewrite <- !app_assoc; reflexivity|]. split; [|split].
  - rewrite cd_app. rewrite (proj2 (eps_silent_not_early T ns to before n false) F). destruct i; reflexivity.
  - pose proof (eps_silent_at_most_once T ns to after (n' || i) true) as (_ & X). lia.
  - pose proof (eps_silent_at_most_once T ns to after (n' || i) true) as (X & _). rewrite orb_true_r in X. lia.
Qed.

(* non-vacuity: silence from time 0 (handshake finished at 0), default timers *)
Example eps_silence_example :
  exists s evs, run true w_new (w_handshake ++ eps_poll_ops [(400, 0, w_status); (500, 0, w_status); (501, 0, w_status);
                                      (1999, 0, w_status); (2000, 0, w_status); (2001, 0, w_status); (9000, 0, w_status)])
                = Ok (s, evs) /\
    skipn 5 evs = [EvNetworkInterrupted 1500; EvDisconnected].
Proof. apply run_witness. vm_compute. reflexivity. Qed.

Example eps_undecodable_example :
  exists s evs, run true w_new w_handshake = Ok (s, evs) /\ eps_wf s /\
    alookup (eps_decode_frame s 0) (u_recv_inputs s) = Some [0;0;0;0]%N /\
    Codec.decode true [0;0;0;0]%N [128]%N = Err /\
    passes_filters s (mkMsg 7 (Input w_status false 0 (-1) [128]%N)) = true.
Proof. apply run_witness. vm_compute. auto. Qed.

(* a wrong-size frame after a good one: the good frame is delivered, no ack *)
Example eps_wrong_size_example :
  exists s evs, run true w_new (w_handshake ++
      [OMessage 0 200 (mkMsg 7 (Input w_status false 0 (-1) (Codec.encode [0;0;0;0]%N [[1;0;0;0]%N; [7;7;7]%N])));
       OPoll 0 200 w_status]) = Ok (s, evs) /\
    skipn 5 evs = [EvInput 0 1 1] /\ last_recv_frame s = 0 /\
    Forall (fun m => match m_body m with InputAck _ => False | _ => True end) (u_send_queue s).
Proof.
  apply run_witness. vm_compute. repeat constructor.
Qed.

(* 129 unacknowledged inputs: Disconnected raised; after `disconnect` the buffer no longer grows *)
Example eps_pending_output_example :
  exists s evs, run true w_new (w_handshake ++ w_sends 0 129 ++ [OPoll 0 200 w_status; ODisconnect 0] ++ w_sends 0 5)
                = Ok (s, evs) /\
    length (u_pending_output s) = 129%nat /\ count_disconnected evs = 1%nat.
Proof. apply run_witness. vm_compute. auto. Qed.
