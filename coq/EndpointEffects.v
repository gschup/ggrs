(* What the operations of the endpoint model (Endpoint.v) do: inversion lemmas for [step] and [run], and the
   result of each operation as an equation on states, from which any field is read off by computation. *)
From Coq Require Import ZArith List Bool.
From GGRS Require Import Base Consts TimeSync Codec Endpoint EndpointSpec.
From GGRS Require Import LiaSetup.
Open Scope Z_scope.

(* the fields of states built by setters: in the goal, in one hypothesis *)
Tactic Notation "fs" :=
  cbn [u_num_players u_handles u_send_queue u_event_queue u_state u_sync_remaining u_sync_requests
       u_last_quality_report u_last_input_recv u_notify_sent u_event_sent u_timeout u_notify_start
       u_shutdown_timeout u_fps u_magic u_remote_magic u_peer_status u_pending_output u_last_acked
       u_max_prediction u_recv_inputs u_time_sync u_local_adv u_remote_adv u_stats_start u_rtt
       u_last_send_time u_last_sync_request_time u_last_recv_time u_pending_checksums u_desync
       set_send_queue set_event_queue set_state set_sync_remaining set_sync_requests
       set_last_quality_report set_last_input_recv set_notify_sent set_event_sent set_shutdown_timeout
       set_remote_magic set_peer_status set_pending_output set_last_acked set_recv_inputs set_time_sync
       set_local_adv set_remote_adv set_stats_start set_rtt set_last_send_time
       set_last_sync_request_time set_last_recv_time set_pending_checksums
       push_event queue_message send_sync_request send_input_ack send_keep_alive send_checksum_report
       fst snd].
Tactic Notation "fs" "in" hyp(H) :=
  cbn [u_num_players u_handles u_send_queue u_event_queue u_state u_sync_remaining u_sync_requests
       u_last_quality_report u_last_input_recv u_notify_sent u_event_sent u_timeout u_notify_start
       u_shutdown_timeout u_fps u_magic u_remote_magic u_peer_status u_pending_output u_last_acked
       u_max_prediction u_recv_inputs u_time_sync u_local_adv u_remote_adv u_stats_start u_rtt
       u_last_send_time u_last_sync_request_time u_last_recv_time u_pending_checksums u_desync
       set_send_queue set_event_queue set_state set_sync_remaining set_sync_requests
       set_last_quality_report set_last_input_recv set_notify_sent set_event_sent set_shutdown_timeout
       set_remote_magic set_peer_status set_pending_output set_last_acked set_recv_inputs set_time_sync
       set_local_adv set_remote_adv set_stats_start set_rtt set_last_send_time
       set_last_sync_request_time set_last_recv_time set_pending_checksums
       push_event queue_message send_sync_request send_input_ack send_keep_alive send_checksum_report
       fst snd] in H.

Lemma pstate_eqb_eq : forall a b, pstate_eqb a b = true <-> a = b.
Proof. destruct a, b; cbn; split; intro H; try reflexivity; discriminate. Qed.

Lemma ep_eta : forall s, s = mkEp (u_num_players s) (u_handles s) (u_send_queue s) (u_event_queue s) (u_state s)
  (u_sync_remaining s) (u_sync_requests s) (u_last_quality_report s) (u_last_input_recv s) (u_notify_sent s)
  (u_event_sent s) (u_timeout s) (u_notify_start s) (u_shutdown_timeout s) (u_fps s) (u_magic s) (u_remote_magic s)
  (u_peer_status s) (u_pending_output s) (u_last_acked s) (u_max_prediction s) (u_recv_inputs s) (u_time_sync s)
  (u_local_adv s) (u_remote_adv s) (u_stats_start s) (u_rtt s) (u_last_send_time s) (u_last_sync_request_time s)
  (u_last_recv_time s) (u_pending_checksums s) (u_desync s).
Proof. destruct s; reflexivity. Qed.

Lemma step_inv : forall dbg o s s' out, step dbg o s = Ok (s', out) ->
  match o with
  | OSynchronize now nonce => synchronize now nonce s = Ok s' /\ out = []
  | OMessage now nonce m => handle_message dbg now nonce m s = Ok s' /\ out = []
  | OPoll now nonce cs => poll now nonce cs s = Ok (out, s')
  | OSendInput now inputs cs => send_input now inputs cs s = Ok s' /\ out = []
  | ODisconnect now => s' = disconnect now s /\ out = []
  | OChecksum now f c => s' = send_checksum_report now f c s /\ out = []
  | OAdvantage lf => update_local_frame_advantage dbg lf s = Ok s' /\ out = []
  | ODrain => s' = snd (drain s) /\ out = []
  end.
Proof.
  intros dbg o s s' out H. unfold step in H.
  destruct o; cbn [step_gen] in H; unfold handle_message, poll, send_input.
  all: try (injection H as <- <-; split; reflexivity).
  all: match type of H with match ?X with _ => _ end = _ => destruct X as [r| |] end; try discriminate.
  3: destruct r.
  all: injection H as <- <-; auto.
Qed.

Lemma run_nil : forall dbg s, run dbg s [] = Ok (s, []).
Proof. reflexivity. Qed.

Lemma run_cons : forall dbg o r s s' evs,
  run dbg s (o :: r) = Ok (s', evs) ->
  exists s1 e1 e2, step dbg o s = Ok (s1, e1) /\ run dbg s1 r = Ok (s', e2) /\ evs = e1 ++ e2.
Proof.
  intros dbg o r s s' evs H. unfold run, step in *. cbn [run_gen] in H.
  destruct (step_gen current_code dbg o s) as [[s1 e1]| |]; try discriminate.
  destruct (run_gen current_code dbg s1 r) as [[s2 e2]| |] eqn:E; try discriminate.
  injection H as <- <-. exists s1, e1, e2. auto.
Qed.

Lemma send_pending_output_shape : forall now cs s t,
  send_pending_output now cs s = Ok t ->
  (u_pending_output s = [] /\ t = s) \/
  (exists f b r, u_pending_output s = (f, b) :: r /\
     t = queue_message now (Input cs (pstate_eqb (u_state s) PDisconnected) f (last_recv_frame s)
                                  (Codec.encode (snd (u_last_acked s)) (map snd (u_pending_output s)))) s).
Proof.
  intros now cs s t H. unfold send_pending_output in H.
  destruct (u_pending_output s) as [|[f b] r] eqn:E; [injection H as <-; auto|].
  destruct ((fst (u_last_acked s) =? NULL) || (fst (u_last_acked s) + 1 =? f)); [|discriminate].
  injection H as <-. right. exists f, b, r. auto.
Qed.

Lemma send_quality_report_shape : forall now s t, send_quality_report now s = Ok t ->
  exists adv, t = queue_message now (QualityReport adv now) (set_last_quality_report now s).
Proof.
  intros now s t H. unfold send_quality_report in H. cbv zeta in H.
  destruct (ts_report_frame_advantage _) as [adv| |]; try discriminate. injection H as <-. eauto.
Qed.

Lemma pop_pending_output_nf : forall a s,
  pop_pending_output a s =
  let p := pop_pending a (u_pending_output s) (u_last_acked s) in set_last_acked (snd p) (set_pending_output (fst p) s).
Proof. intros a s. unfold pop_pending_output. destruct (pop_pending _ _ _). reflexivity. Qed.

Lemma on_checksum_report_shape : forall dbg c f s s',
  on_checksum_report dbg c f s = Ok s' -> exists pcs, s' = set_pending_checksums pcs s.
Proof.
  intros dbg c f s s' H. unfold on_checksum_report in H. cbv zeta in H.
  destruct (match u_desync s with Some i => Ok i | None => _ end) as [iv| |]; try discriminate.
  destruct (MAX_CHECKSUM_HISTORY_SIZE <=? _);
    [destruct (ts_i32_arith dbg _); try discriminate; destruct (ts_i32_arith dbg _); try discriminate|];
    injection H as <-; eauto.
Qed.

Lemma synchronize_inv : forall now nonce s s', synchronize now nonce s = Ok s' ->
  u_state s = PInitializing /\
  s' = send_sync_request now nonce
         (set_stats_start now (set_sync_remaining NUM_SYNC_PACKETS (set_state PSynchronizing s))).
Proof.
  intros now nonce s s' H. unfold synchronize in H.
  destruct (pstate_eqb (u_state s) PInitializing) eqn:E; [|discriminate].
  apply pstate_eqb_eq in E. injection H as <-. auto.
Qed.

Lemma update_local_frame_advantage_shape : forall dbg lf s s',
  update_local_frame_advantage dbg lf s = Ok s' -> exists a, s' = set_local_adv a s.
Proof.
  intros dbg lf s s' H. unfold update_local_frame_advantage in H.
  destruct (ts_update_local_frame_advantage _ _ _ _ _ _) as [a| |]; try discriminate. injection H as <-. eauto.
Qed.

(* a SyncReply behind the filters: nothing unless its nonce is outstanding in the Synchronizing state *)
Lemma on_sync_reply_inv : forall dbg now nonce mg n s s',
  on_sync_reply dbg now nonce mg n s = Ok s' ->
  if pstate_eqb (u_state s) PSynchronizing && zmem n (u_sync_requests s) then
    let rem := (u_sync_remaining s - 1) mod 4294967296 in
    let s2 := set_sync_remaining rem (set_sync_requests (zremove n (u_sync_requests s)) s) in
    s' = if 0 <? rem
         then send_sync_request now nonce
                (push_event (EvSynchronizing NUM_SYNC_PACKETS ((NUM_SYNC_PACKETS - rem) mod 4294967296)) s2)
         else set_remote_magic mg (push_event EvSynchronized (set_stats_start now (set_state PRunning s2)))
  else s' = s.
Proof.
  intros dbg now nonce mg n s s' H. unfold on_sync_reply in H.
  destruct (pstate_eqb (u_state s) PSynchronizing); cbn [negb andb] in *; [|injection H as <-; reflexivity].
  destruct (zmem n (u_sync_requests s)); cbn [negb] in H; [|injection H as <-; reflexivity].
  cbv zeta in *. fs in H. destruct ((u_sync_remaining s <=? 0) && dbg); [discriminate|].
  destruct (0 <? _); [destruct ((NUM_SYNC_PACKETS <? _) && dbg); [discriminate|]|]; injection H as <-; reflexivity.
Qed.

(* send_input at a Running endpoint: the input is appended to pending_output, Disconnected is raised once when
   that makes more than PENDING_OUTPUT_SIZE, and one packet carrying all of pending_output is queued *)
Lemma send_input_inv : forall now inputs cs s s', send_input now inputs cs s = Ok s' ->
  if pstate_eqb (u_state s) PRunning then
    exists data ts f,
      from_inputs (u_num_players s) inputs = Ok data /\
      let po := u_pending_output s ++ [data] in
      let over := (PENDING_OUTPUT_SIZE <? N.of_nat (length po))%N in
      hd_error po = Some f /\
      s' = queue_message now
             (Input cs false (fst f) (last_recv_frame s) (Codec.encode (snd (u_last_acked s)) (map snd po)))
             (set_event_sent (u_event_sent s || over)
                (set_event_queue (u_event_queue s ++ (if over && negb (u_event_sent s) then [EvDisconnected] else []))
                   (set_pending_output po (set_time_sync ts s))))
  else s' = s.
Proof.
  intros now inputs cs s s' H. unfold send_input, send_input_gen in H. cbn [fix_send_guard current_code] in H.
  destruct (pstate_eqb (u_state s) PRunning) eqn:Er; cbn [negb] in H; [|injection H as <-; reflexivity].
  apply pstate_eqb_eq in Er.
  destruct (from_inputs _ _) as [data| |]; try discriminate.
  destruct (ts_advance_frame _ _ _ _) as [ts| |]; try discriminate. cbv zeta in *.
  exists data, ts. fs in H.
  apply send_pending_output_shape in H.
  destruct (PENDING_OUTPUT_SIZE <? _)%N; [destruct (u_event_sent s) eqn:Ee|]; fs in H;
    (destruct H as [(E & _)|(f & b & r & E & ->)]; [destruct (u_pending_output s); discriminate|]);
    exists (f, b); (split; [reflexivity|]); (split; [rewrite E; reflexivity|]);
    unfold last_recv_frame; rewrite (ep_eta s); fs; rewrite Er, ?Ee, ?app_nil_r, ?orb_false_r; reflexivity.
Qed.

(* the first half of poll_running only sends: [bs] under the endpoint's own magic, and the three timestamps *)
Definition sent (now : Z) (bs : list body) (i r : Z) (s : ep) : ep :=
  set_send_queue (u_send_queue s ++ map (mkMsg (u_magic s)) bs)
    (set_last_send_time (match bs with [] => u_last_send_time s | _ => now end)
       (set_last_input_recv i (set_last_quality_report r s))).

Lemma sent_nil : forall now s, s = sent now [] (u_last_input_recv s) (u_last_quality_report s) s.
Proof. intros now s. unfold sent. rewrite (ep_eta s). fs. rewrite app_nil_r. reflexivity. Qed.

Lemma sent_queue : forall now b bs i r s x,
  x = sent now bs i r s -> queue_message now b x = sent now (bs ++ [b]) i r s.
Proof.
  intros now b bs i r s x ->. unfold sent, queue_message. fs. rewrite map_app, app_assoc.
  destruct bs; exact eq_refl.
Qed.

(* the second half raises the timers' events *)
Definition interrupt_now (now : Z) (s : ep) : bool :=
  negb (u_notify_sent s) && negb (u_event_sent s) && (u_last_recv_time s + u_notify_start s <? now).
Definition timeout_now (now : Z) (s : ep) : bool :=
  negb (u_event_sent s) && (u_last_recv_time s + u_timeout s <? now).
Definition poll_pushed (now : Z) (s : ep) : list event :=
  (if interrupt_now now s then [EvNetworkInterrupted (Z.max 0 (u_timeout s - u_notify_start s))] else []) ++
  (if timeout_now now s then [EvDisconnected] else []).

Lemma poll_running_inv : forall now cs s s', poll_running now cs s = Ok s' ->
  exists bs i r, (length bs <= 2)%nat /\
    s' = set_event_sent (u_event_sent s || timeout_now now s)
           (set_notify_sent (u_notify_sent s || interrupt_now now s)
              (set_event_queue (u_event_queue s ++ poll_pushed now s) (sent now bs i r s))).
Proof.
  intros now cs s s' H. unfold poll_running, poll_running_gen in H.
  cbn [fix_quiet_dead current_code] in H. cbv zeta in H.
  (* the retransmission *)
  match type of H with match ?X with _ => _ end = _ => destruct X as [s1| |] eqn:E1; try discriminate end.
  assert (A1 : exists bs i, (length bs <= 1)%nat /\ s1 = sent now bs i (u_last_quality_report s) s).
  { destruct (_ <? now) in E1.
    - destruct (send_pending_output now cs s) as [t| |] eqn:Et; try discriminate. injection E1 as <-.
      apply send_pending_output_shape in Et. destruct Et as [(_ & ->)|(f & b & r & _ & ->)].
      + exists [], now. split; [auto|]. rewrite (sent_nil now s) at 1. exact eq_refl.
      + eexists [_], now. split; [auto|]. rewrite (sent_queue now _ [] _ _ s s (sent_nil now s)). exact eq_refl.
    - injection E1 as <-. exists [], (u_last_input_recv s). split; [auto|]. apply sent_nil. }
  clear E1. destruct A1 as (bs1 & i & L1 & ->).
  (* the quality report *)
  match type of H with match ?X with _ => _ end = _ => destruct X as [s2| |] eqn:E2; try discriminate end.
  assert (A2 : exists bs r, (length bs <= 2)%nat /\ s2 = sent now bs i r s).
  { destruct (_ <? now) in E2.
    - apply send_quality_report_shape in E2. destruct E2 as (adv & ->).
      exists (bs1 ++ [QualityReport adv now]), now. split; [rewrite app_length; cbn; lia|].
      apply sent_queue. reflexivity.
    - injection E2 as <-. eauto. }
  clear E2 L1 bs1. destruct A2 as (bs2 & r & L2 & ->).
  (* the keep-alive, only if nothing was sent *)
  set (s3 := if _ <? now then send_keep_alive now _ else _) in H.
  assert (A3 : exists bs, (length bs <= 2)%nat /\ s3 = sent now bs i r s).
  { subst s3. destruct bs2 as [|b bs2].
    - destruct (_ <? now); [exists [KeepAlive]|exists []]; (split; [auto|]);
        [apply (sent_queue now KeepAlive []); reflexivity|reflexivity].
    - change (u_last_send_time (sent now (b :: bs2) i r s)) with now.
      assert ((now + KEEP_ALIVE_INTERVAL <? now) = false) as -> by (unfold KEEP_ALIVE_INTERVAL; lia). eauto. }
  clearbody s3. destruct A3 as (bs & L & E3). exists bs, i, r. split; [exact L|].
  injection H as <-.
  (* the timers' case split on the variable [s3], where it copies small terms; [sent] keeps the fields it reads *)
  transitivity (set_event_sent (u_event_sent s3 || timeout_now now s3)
                  (set_notify_sent (u_notify_sent s3 || interrupt_now now s3)
                     (set_event_queue (u_event_queue s3 ++ poll_pushed now s3) s3))); [|rewrite E3; reflexivity].
  clear. unfold poll_pushed, interrupt_now, timeout_now, push_event. destruct s3. fs.
  destruct (negb _ && negb _ && _); fs; destruct (negb _ && _); fs;
    rewrite ?orb_true_r, ?orb_false_r, ?app_nil_r, <- ?app_assoc; reflexivity.
Qed.
