(* Operation-sequence theorems about the InputQueue model:
   - a local player's queue under add / set_frame_delay / discard / input (C11, queue level)
   - a remote player's queue under add / input / reset / discard with a predictor (C03, queue level) *)
From GGRS Require Import Base Consts Queue QueueProofs.
From GGRS Require Import LiaSetup.
Open Scope Z_scope.

Definition safe {A} (r : res A) (P : A -> Prop) : Prop :=
  match r with Ok a => P a | Err => True | Panic => False end.

Lemma safe_bind {A B} (r : res A) (f : A -> res B) (P : A -> Prop) (Q : B -> Prop) :
  safe r P -> (forall a, P a -> safe (f a) Q) -> safe (res_bind r f) Q.
Proof. destruct r; cbn; auto. Qed.

Lemma safe_elim {A} (r : res A) (P : A -> Prop) : safe r P -> r <> Panic /\ forall a, r = Ok a -> P a.
Proof.
  destruct r; cbn; intro H; (split; [congruence|]); intros a' E; [|discriminate..].
  inversion E; subst. exact H.
Qed.

Inductive lop := LAdd (v : Z) | LDelay (d : Z) | LDiscard (f : Z) | LInput (f : Z).

Record lstate := mkls {
  ls_q : queue;
  ls_uf : Z;                    (* next user frame = the session's current frame *)
  ls_sent : list pinput;        (* what the session hands to the remotes, in order *)
  ls_used : list pinput }.      (* what the owner's own simulation was given *)

Definition ls_init : lstate := mkls q_new 0 [] [].

Definition tail_frame_of (q : queue) : Z := pi_frame (slot (q_inputs q) (q_tail q)).

(* blanks the session sends before a player's first input (frames 0 .. r-1) *)
Definition blanks (r : Z) : list pinput := fill_list 0 0 (Z.to_nat r).

Lemma oldest_frame : forall q hist low, RInv q hist low ->
  (if q_last_added q =? NULL then 0 else tail_frame_of q) = low.
Proof.
  intros q hist low I. unfold tail_frame_of. rewrite (tail_frame _ _ _ I), (ri_last _ _ _ I).
  pose proof (RInv_low _ _ _ I) as L.
  destruct (Z.eqb_spec (hlen hist) 0) as [E|E].
  - rewrite E. cbn. lia.
  - assert ((hlen hist - 1 =? NULL) = false) as -> by (unfold NULL; lia). reflexivity.
Qed.

Definition stream (hist : list Z) : list pinput :=
  map (fun i => mkpi (Z.of_nat i) (nth i hist 0)) (seq 0 (length hist)).

Lemma stream_snoc : forall hist v, stream (hist ++ [v]) = stream hist ++ [mkpi (hlen hist) v].
Proof.
  intros hist v. unfold stream, hlen. rewrite app_length, Nat.add_1_r, seq_S, map_app.
  cbn [map plus]. rewrite nth_middle. f_equal.
  apply map_ext_in. intros i Hi. apply in_seq in Hi. rewrite app_nth1 by lia. reflexivity.
Qed.

Lemma stream_app_repeat : forall n hist v,
  stream (hist ++ repeat v n) = stream hist ++ fill_list v (hlen hist) n.
Proof.
  induction n as [|k IH]; intros hist v; cbn [repeat fill_list].
  - rewrite !app_nil_r. reflexivity.
  - change (hist ++ v :: repeat v k) with (hist ++ [v] ++ repeat v k).
    rewrite app_assoc, IH, stream_snoc, hlen_app, <- app_assoc. reflexivity.
Qed.

Lemma stream_in : forall hist f, 0 <= f < hlen hist -> In (mkpi f (hval hist f)) (stream hist).
Proof.
  intros hist f Hf. unfold stream. apply in_map_iff. exists (Z.to_nat f). split.
  - unfold hval. f_equal. lia.
  - apply in_seq. unfold hlen in Hf. lia.
Qed.

Section Local.
Variable predict : Z -> Z.
Variable MAXD : Z.   (* upper bound of the delays lstep admits *)

(* Err = the operation is outside the claimed space (a precondition the session guarantees
   fails); Panic = an assert! of the code fires *)
Definition lstep (s : lstate) (o : lop) : res lstate :=
  let q := ls_q s in
  match o with
  | LAdd v =>
      (* the ring must have room for the frames this submission inserts *)
      if QLEN <? Z.max (q_last_added q + 1) (ls_uf s + q_delay q + 1) - (if q_last_added q =? NULL then 0 else tail_frame_of q)
      then Err else
      res_bind (add_input q (ls_uf s) v) (fun '(q', r) =>
        let out := if r =? NULL then [] else (if ls_sent s then blanks r else []) ++ [mkpi r v] in
        Ok (mkls q' (ls_uf s + 1) (ls_sent s ++ out) (ls_used s)))
  | LDelay d =>
      if (d <? 0) || (MAXD <? d) then Err else
      if QLEN <? Z.max (q_last_added q + 1) (q_last_user q + d + 1) - (if q_last_added q =? NULL then 0 else tail_frame_of q)
      then Err else
      res_bind (set_frame_delay q d) (fun '(q', fills) =>
        Ok (mkls q' (ls_uf s) (ls_sent s ++ fills) (ls_used s)))
  | LDiscard f =>
      if q_last_added q <=? f then Err else
      Ok (mkls (discard_confirmed_frames q f) (ls_uf s) (ls_sent s) (ls_used s))
  | LInput f =>
      if (f <? tail_frame_of q) || (q_last_added q <? f) || (f <? 0) then Err else
      res_bind (input predict q f) (fun '(q', (v, _)) =>
        Ok (mkls q' (ls_uf s) (ls_sent s) (ls_used s ++ [mkpi f v])))
  end.

Fixpoint lrun (s : lstate) (ops : list lop) : res lstate :=
  match ops with
  | [] => Ok s
  | o :: r => res_bind (lstep s o) (fun s' => lrun s' r)
  end.

Record LInv (s : lstate) (hist : list Z) (low : Z) : Prop := {
  li_ring : RInv (ls_q s) hist low;
  li_pred : pi_frame (q_pred (ls_q s)) = NULL;
  li_fi : q_first_incorrect (ls_q s) = NULL;
  li_user : (q_last_user (ls_q s) = NULL /\ ls_uf s = 0 /\ hist = []) \/
            (q_last_user (ls_q s) = ls_uf s - 1 /\ 0 < ls_uf s);
  li_full : hist <> [] -> ls_uf s + q_delay (ls_q s) <= hlen hist;
  li_sent : ls_sent s = stream hist;
  li_used : forall u, In u (ls_used s) -> In u (ls_sent s);
}.

Lemma LInv_init : LInv ls_init [] 0.
Proof.
  constructor; unfold ls_init, q_new;
    cbn [ls_q ls_uf ls_sent ls_used q_pred q_first_incorrect q_delay q_last_user pi_frame blank].
  - apply RInv_new.
  - reflexivity.
  - reflexivity.
  - left. auto.
  - intro H. contradiction.
  - reflexivity.
  - intros u [].
Qed.

Definition lstep_ok (s : lstate) (o : lop) : Prop :=
  safe (lstep s o) (fun s' => exists hist' low', LInv s' hist' low').

(* a submission: dropped while the queue is ahead of it (after a delay decrease), otherwise stored
   behind copies of the newest input for the frames a delay increase left open; the very first one
   is preceded by the blanks the session sends for the frames before it *)
Lemma ladd_inv : forall s hist low v, LInv s hist low -> lstep_ok s (LAdd v).
Proof.
  intros s hist low v [I Hp Hfi Hu Hfull Hsent Hused]. unfold lstep_ok, lstep.
  rewrite (oldest_frame _ _ _ I), (ri_last _ _ _ I), Z.sub_add.
  set (t := ls_uf s + q_delay (ls_q s)).
  destruct (Z.ltb_spec QLEN (Z.max (hlen hist) (t + 1) - low)) as [Hc|Hc]; [exact Logic.I|].
  assert (Hseq : q_last_user (ls_q s) = NULL \/ ls_uf s = q_last_user (ls_q s) + 1)
    by (destruct Hu as [(A & _)|(A & _)]; [left; exact A|right; lia]).
  pose proof (hlen_nonneg hist) as Hnn.
  destruct (Z.lt_ge_cases t (hlen hist)) as [Hlt|Hge].
  - rewrite (add_input_late _ hist low _ v I Hseq Hlt). cbn. rewrite app_nil_r.
    exists hist, low. constructor; cbn [ls_q ls_uf ls_sent ls_used set_last_user q_pred q_first_incorrect q_delay q_last_user]; auto.
    + eapply RInv_ext; [exact I|reflexivity..].
    + right. lia.
    + intros _. fold t. lia.
  - destruct (add_input_fills _ hist low _ v I Hseq Hge ltac:(lia) (or_introl Hp) (fun _ => Hp))
      as (q' & E & I' & D' & U' & R' & F' & P'). fold t in E, I', F', P'.
    rewrite E. cbn [res_bind safe]. assert ((t =? NULL) = false) as -> by (unfold NULL; lia).
    eexists _, low. constructor; cbn [ls_q ls_uf ls_sent ls_used].
    + exact I'.
    + rewrite P', pred_after_idle; exact Hp.
    + rewrite F', fi_after_idle; assumption.
    + right. rewrite U'. lia.
    + intros _. rewrite D', app_assoc, hlen_app, hlen_repeat. fold t. lia.
    + rewrite (app_assoc hist), stream_snoc, stream_app_repeat, hlen_repeat, Hsent, <- app_assoc.
      replace (hlen hist + Z.of_nat (Z.to_nat (t - hlen hist))) with t by lia. f_equal. f_equal.
      destruct hist as [|h0 hr].
      * unfold blanks. rewrite Z.sub_0_r. reflexivity.
      * specialize (Hfull ltac:(discriminate)). fold t in Hfull.
        replace (Z.to_nat (t - hlen (h0 :: hr))) with 0%nat by lia. reflexivity.
    + intros u Hu'. apply in_or_app. left. apply Hused, Hu'.
Qed.

Lemma ldelay_inv : forall s hist low d, LInv s hist low -> lstep_ok s (LDelay d).
Proof.
  intros s hist low d [I Hp Hfi Hu Hfull Hsent Hused]. unfold lstep_ok, lstep.
  pose proof (hlen_nonneg hist) as Hnn.
  destruct ((d <? 0) || (MAXD <? d)) eqn:Ed; [exact Logic.I|].
  rewrite (oldest_frame _ _ _ I), (ri_last _ _ _ I), Z.sub_add.
  destruct (Z.ltb_spec QLEN (Z.max (hlen hist) (q_last_user (ls_q s) + d + 1) - low)) as [Hc|Hc]; [exact Logic.I|].
  destruct (set_frame_delay_ok (ls_q s) hist low d I Hp) as (q' & E & I' & D' & U' & R' & F' & P').
  { unfold delay_fills. destruct ((hlen hist =? 0) || (q_last_user (ls_q s) =? NULL)); lia. }
  rewrite E. cbn [res_bind safe]. eexists _, low. constructor; cbn [ls_q ls_uf ls_sent ls_used].
  - exact I'.
  - congruence.
  - congruence.
  - rewrite U'. destruct Hu as [(A & B & C)|Hu]; [left|right; exact Hu].
    subst hist. auto.
  - intros Hne. rewrite D', hlen_repeat. unfold delay_fills in *.
    destruct Hu as [(A & B & C)|(A & B)]; [subst hist; contradiction|].
    destruct (Z.eqb_spec (hlen hist) 0) as [E0|E0].
    + apply hlen_zero in E0. subst hist. contradiction.
    + assert ((q_last_user (ls_q s) =? NULL) = false) as -> by (unfold NULL; lia). cbn [orb]. lia.
  - rewrite stream_app_repeat, Hsent. reflexivity.
  - intros u Hu'. apply in_or_app. left. apply Hused, Hu'.
Qed.

Lemma ldiscard_inv : forall s hist low f, LInv s hist low -> lstep_ok s (LDiscard f).
Proof.
  intros s hist low f [I Hp Hfi Hu Hfull Hsent Hused]. unfold lstep_ok, lstep.
  destruct (Z.leb_spec (q_last_added (ls_q s)) f) as [Hc|Hc]; [exact Logic.I|].
  rewrite (ri_last _ _ _ I) in Hc.
  destruct (discard_ok (ls_q s) hist low f I ltac:(lia)) as (I' & D' & U' & R' & F' & P').
  exists hist, (discard_low (ls_q s) low f).
  constructor; cbn [ls_q ls_uf ls_sent ls_used]; rewrite ?D', ?U', ?F', ?P'; assumption.
Qed.

Lemma linput_inv : forall s hist low f, LInv s hist low -> lstep_ok s (LInput f).
Proof.
  intros s hist low f [I Hp Hfi Hu Hfull Hsent Hused]. unfold lstep_ok, lstep, tail_frame_of.
  rewrite (tail_frame _ _ _ I), (ri_last _ _ _ I). pose proof (RInv_low _ _ _ I) as L.
  destruct ((f <? (if hlen hist =? 0 then NULL else low)) || (hlen hist - 1 <? f) || (f <? 0)) eqn:Ec;
    [exact Logic.I|].
  assert (Hf : low <= f < hlen hist) by (destruct (Z.eqb_spec (hlen hist) 0); unfold NULL in *; lia).
  rewrite (input_confirmed predict (ls_q s) hist low f I Hfi Hp Hf). cbn [res_bind safe].
  exists hist, low.
  constructor; cbn [ls_q ls_uf ls_sent ls_used set_last_requested q_pred q_first_incorrect q_delay q_last_user]; auto.
  - eapply RInv_ext; [exact I|reflexivity..].
  - intros u Hu'. apply in_app_or in Hu'. destruct Hu' as [Hu'|[<-|[]]]; [apply Hused, Hu'|].
    rewrite Hsent. apply stream_in. lia.
Qed.

Lemma lrun_inv : forall ops s hist low, LInv s hist low ->
  safe (lrun s ops) (fun s' => exists hist' low', LInv s' hist' low').
Proof.
  induction ops as [|o r IH]; intros s hist low L; cbn [lrun].
  - exists hist, low. exact L.
  - apply safe_bind with (P := fun s' => exists hist' low', LInv s' hist' low').
    + destruct o; [eapply ladd_inv|eapply ldelay_inv|eapply ldiscard_inv|eapply linput_inv]; exact L.
    + intros s1 (h1 & l1 & L1). exact (IH s1 h1 l1 L1).
Qed.

End Local.

Inductive rop := RAdd (v : Z) | RInput (f : Z) | RReset | RDiscard (f : Z).

Record rstate := mkrs {
  rs_q : queue;
  rs_added : list Z;                                   (* real inputs received, frame = position *)
  rs_log : list (Z * Z * istatus * list Z) }.         (* (frame, value, status, inputs received at that time) *)

Definition rs_init : rstate := mkrs q_new [] [].

Section Remote.
Variable predict : Z -> Z.
Hypothesis predict_idem : forall x, predict (predict x) = predict x.
Hypothesis predict_default : predict 0 = 0.

Definition rstep (s : rstate) (o : rop) : res rstate :=
  let q := rs_q s in
  match o with
  | RAdd v =>
      if QLEN <? q_last_added q + 2 - (if q_last_added q =? NULL then 0 else tail_frame_of q) then Err else
      res_bind (add_input q (q_last_added q + 1) v) (fun '(q', _) => Ok (mkrs q' (rs_added s ++ [v]) (rs_log s)))
  | RInput f =>
      (* the session never reads a queue with a pending misprediction, never reads below the tail,
         and reads non-decreasing frames between two resets *)
      if negb (q_first_incorrect q =? NULL) || (f <? tail_frame_of q) || (f <? 0)
         || (negb (q_last_requested q =? NULL) && (f <? q_last_requested q)) then Err else
      res_bind (input predict q f) (fun '(q', (v, st)) => Ok (mkrs q' (rs_added s) (rs_log s ++ [(f, v, st, rs_added s)])))
  | RReset => Ok (mkrs (reset_prediction q) (rs_added s) (rs_log s))
  | RDiscard f =>
      if q_last_added q <=? f then Err else Ok (mkrs (discard_confirmed_frames q f) (rs_added s) (rs_log s))
  end.

Fixpoint rrun (s : rstate) (ops : list rop) : res rstate :=
  match ops with
  | [] => Ok s
  | o :: r => res_bind (rstep s o) (fun s' => rrun s' r)
  end.

Definition entry_ok (e : Z * Z * istatus * list Z) : Prop :=
  let '(f, v, st, hist) := e in
  match st with
  | Confirmed => 0 <= f < hlen hist /\ v = hval hist f
  | Predicted => hlen hist <= f /\ v = predval predict hist
  | Disconnected => False
  end.

Record PredInv (q : queue) (hist : list Z) : Prop := {
  pd_frame : pred_ok q (hlen hist);
  pd_val : pi_frame (q_pred q) <> NULL -> q_first_incorrect q = NULL ->
           pi_val (q_pred q) = predval predict hist /\ hlen hist <= q_last_requested q;
  pd_wrong : q_first_incorrect q <> NULL ->
             pi_frame (q_pred q) <> NULL /\ 0 <= q_first_incorrect q < hlen hist;
}.

Lemma PredInv_idle : forall q hist,
  pi_frame (q_pred q) = NULL -> q_first_incorrect q = NULL -> PredInv q hist.
Proof. intros q hist Hp Hf. constructor; [left; exact Hp|congruence..]. Qed.

Lemma predval_snoc_same : forall hist, predval predict (hist ++ [predval predict hist]) = predval predict hist.
Proof.
  intros hist. unfold predval at 1. rewrite hlen_app, hlast_app. pose proof (hlen_nonneg hist).
  assert ((hlen hist + 1 =? 0) = false) as -> by lia.
  unfold predval. destruct (hlen hist =? 0); [apply predict_default|apply predict_idem].
Qed.

Lemma PredInv_push : forall q q' hist v,
  PredInv q hist -> q_last_requested q' = q_last_requested q ->
  q_first_incorrect q' = fi_after q v (hlen hist) -> q_pred q' = pred_after q v (hlen hist) ->
  PredInv q' (hist ++ [v]).
Proof.
  intros q q' hist v [Pf Pv Pw] R' F' P'. pose proof (hlen_nonneg hist) as Hnn.
  assert (N : forall x, 0 <= x -> x <> NULL) by (unfold NULL; lia).
  destruct (insertion_cases q v (hlen hist) Hnn Pf)
    as [(En & Ef & Ep)|[(En & Ef0 & Ev & Ef & Ep)|(En & Ef & Efn & Ep)]];
    rewrite <- F' in *; rewrite <- P' in *; clear F' P';
    constructor; unfold pred_ok; rewrite ?hlen_app, ?R'.
  (* nothing was predicted *)
  - left. rewrite Ep. exact En.
  - rewrite Ep. intros H _. contradiction.
  - rewrite Ef. intro H. destruct (Pw H) as [H' _]. contradiction.
  (* the guess was right: its value is again what the predictor gives for the longer history (predval_snoc_same) *)
  - rewrite Ep. cbn [pi_frame]. destruct (_ =? _); auto.
  - rewrite Ep. cbn [pi_frame pi_val].
    destruct (Z.eqb_spec (hlen hist) (q_last_requested q)) as [El|El]; [intro H; contradiction|]. intros _ _.
    destruct (Pv ltac:(rewrite En; apply N, Hnn) Ef0) as [Bv Bl].
    assert (v = predval predict hist) as -> by congruence. rewrite predval_snoc_same. lia.
  - rewrite Ef. intro H. contradiction.
  (* a wrong guess, at this frame or an earlier one *)
  - right. exact Ep.
  - intros _ H. contradiction.
  - intros _. rewrite Ep. split; [apply N; lia|]. destruct Ef as [Ef|Ef]; rewrite Ef in *; [lia|].
    apply Pw in Efn. lia.
Qed.

Record PInv (s : rstate) (low : Z) : Prop := {
  pv_ring : RInv (rs_q s) (rs_added s) low;
  pv_delay : q_delay (rs_q s) = 0;
  pv_user : q_last_user (rs_q s) = hlen (rs_added s) - 1;
  pv_pred : PredInv (rs_q s) (rs_added s);
  pv_log : Forall entry_ok (rs_log s);
}.

Lemma PInv_init : PInv rs_init 0.
Proof.
  constructor; unfold rs_init; cbn [rs_q rs_added rs_log].
  - apply RInv_new.
  - reflexivity.
  - reflexivity.
  - apply PredInv_idle; reflexivity.
  - constructor.
Qed.

Definition rstep_ok (s : rstate) (o : rop) : Prop := safe (rstep s o) (fun s' => exists low', PInv s' low').

Lemma radd_inv : forall s low v, PInv s low -> rstep_ok s (RAdd v).
Proof.
  intros s low v [I Hd Hu Hpd Hlog]. unfold rstep_ok, rstep.
  rewrite (oldest_frame _ _ _ I), (ri_last _ _ _ I), Z.sub_add.
  destruct (Z.ltb_spec QLEN (hlen (rs_added s) - 1 + 2 - low)) as [Hc|Hc]; [exact Logic.I|].
  pose proof (hlen_nonneg (rs_added s)) as Hnn.
  assert (Hseq : q_last_user (rs_q s) = NULL \/ hlen (rs_added s) = q_last_user (rs_q s) + 1) by (right; lia).
  pose proof (add_input_fills (rs_q s) (rs_added s) low (hlen (rs_added s)) v I Hseq) as H.
  cbv zeta in H. rewrite Hd, Z.add_0_r, Z.sub_diag in H.
  destruct H as (q' & E & I' & D' & U' & R' & F' & P'); [lia|lia|apply Hpd|lia|].
  rewrite E. cbn [res_bind safe]. exists low.
  constructor; cbn [rs_q rs_added rs_log]; rewrite ?hlen_app.
  - exact I'.
  - congruence.
  - rewrite U'. lia.
  - exact (PredInv_push _ _ _ _ Hpd R' F' P').
  - exact Hlog.
Qed.

Lemma rinput_inv : forall s low f, PInv s low -> rstep_ok s (RInput f).
Proof.
  intros s low f [I Hd Hu [Hpf Hpv Hpw] Hlog]. unfold rstep_ok, rstep, tail_frame_of.
  rewrite (tail_frame _ _ _ I). pose proof (RInv_low _ _ _ I) as L.
  destruct (negb (q_first_incorrect (rs_q s) =? NULL)) eqn:Efi; [exact Logic.I|].
  destruct (f <? (if hlen (rs_added s) =? 0 then NULL else low)) eqn:Etail; [exact Logic.I|].
  destruct (f <? 0) eqn:E0; [exact Logic.I|].
  destruct (negb (q_last_requested (rs_q s) =? NULL) && (f <? q_last_requested (rs_q s))) eqn:Ereq; [exact Logic.I|].
  cbn [orb].
  assert (Hfi : q_first_incorrect (rs_q s) = NULL) by lia.
  assert (Htl : (if hlen (rs_added s) =? 0 then NULL else low) <= f) by lia.
  assert (Hlog' : forall v st, entry_ok (f, v, st, rs_added s) -> Forall entry_ok (rs_log s ++ [(f, v, st, rs_added s)]))
    by (intros v st He; apply Forall_app; auto).
  destruct Hpf as [Hpf|Hpf]; [destruct (Z.lt_ge_cases f (hlen (rs_added s))) as [Hlt|Hge]|].
  - assert (Hf : low <= f < hlen (rs_added s)) by (destruct (Z.eqb_spec (hlen (rs_added s)) 0); unfold NULL in *; lia).
    rewrite (input_confirmed predict _ _ low f I Hfi Hpf Hf). cbn [res_bind safe]. exists low.
    constructor; cbn [rs_q rs_added rs_log]; trivial.
    + eapply RInv_ext; [exact I|reflexivity..].
    + apply PredInv_idle; assumption.
    + apply Hlog'. cbn. split; [lia|reflexivity].
  - rewrite (input_predict_start predict _ _ low f I Hfi Hpf Hge ltac:(lia)). cbn [res_bind safe]. exists low.
    constructor; cbn [rs_q rs_added rs_log]; trivial.
    + eapply RInv_ext; [exact I|reflexivity..].
    + constructor; cbn [set_requested_pred q_pred q_first_incorrect q_last_requested pi_frame pi_val]; [right; reflexivity|auto|congruence].
    + apply Hlog'. cbn. auto.
  - assert (Hact : pi_frame (q_pred (rs_q s)) <> NULL) by (unfold NULL; lia).
    destruct (Hpv Hact Hfi) as [Pv Pl].
    rewrite (input_predicting predict _ _ low f I Hfi Hpf Htl). cbn [res_bind safe]. exists low.
    assert (Hreq : hlen (rs_added s) <= f) by (unfold NULL in *; lia).
    constructor; cbn [rs_q rs_added rs_log]; trivial.
    + eapply RInv_ext; [exact I|reflexivity..].
    + constructor; cbn [set_last_requested q_pred q_first_incorrect q_last_requested]; [right; exact Hpf|auto|congruence].
    + apply Hlog'. cbn. auto.
Qed.

Lemma rstep_inv : forall s low o, PInv s low -> rstep_ok s o.
Proof.
  intros s low o L. destruct o as [v|f| |f]; [exact (radd_inv s low v L)|exact (rinput_inv s low f L)| |];
    destruct L as [I Hd Hu [Hpf Hpv Hpw] Hlog]; unfold rstep_ok, rstep.
  - exists low. constructor; cbn [rs_q rs_added rs_log]; trivial.
    + apply reset_ok, I.
    + apply PredInv_idle; reflexivity.
  - destruct (Z.leb_spec (q_last_added (rs_q s)) f) as [Hc|Hc]; [exact Logic.I|].
    rewrite (ri_last _ _ _ I) in Hc.
    destruct (discard_ok (rs_q s) (rs_added s) low f I ltac:(lia)) as (I' & D' & U' & R' & F' & P').
    eexists. constructor; cbn [rs_q rs_added rs_log]; rewrite ?D', ?U'; try eassumption.
    constructor; unfold pred_ok; rewrite ?R', ?F', ?P'; assumption.
Qed.

Lemma rrun_inv : forall ops s low, PInv s low -> safe (rrun s ops) (fun s' => exists low', PInv s' low').
Proof.
  induction ops as [|o r IH]; intros s low L; cbn [rrun].
  - exists low. exact L.
  - apply safe_bind with (P := fun s' => exists low', PInv s' low').
    + exact (rstep_inv s low o L).
    + intros s1 (l1 & L1). exact (IH s1 l1 L1).
Qed.

(* C03, queue level: for every sequence of arrivals, reads, resets and discards the session can
   issue, no assert of the queue fires and every input handed out is truthful: Confirmed = the real
   input that had been received for that frame, Predicted = the predictor applied to the newest
   received input (the default input if none), for a frame beyond everything received *)
Theorem remote_queue_truthful : forall ops s,
  rrun rs_init ops <> Panic /\ (rrun rs_init ops = Ok s -> Forall entry_ok (rs_log s)).
Proof.
  intros ops s. destruct (safe_elim _ _ (rrun_inv ops rs_init 0 PInv_init)) as [A B].
  split; [exact A|]. intro E. destruct (B s E) as (l & L). apply (pv_log _ _ L).
Qed.

End Remote.
