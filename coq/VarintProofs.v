From GGRS Require Import Base Varint.
From GGRS Require Import LiaSetup.
Open Scope N_scope.

Lemma pow128_S : forall k, 128 ^ N.of_nat (S k) = 128 * 128 ^ N.of_nat k.
Proof. intro k. rewrite Nat2N.inj_succ. apply N.pow_succ_r'. Qed.

Lemma vdec_go_venc_fuel : forall fuel n rest val fac cnt,
  n < 128 ^ N.of_nat (S fuel) ->
  vdec_go (venc_fuel fuel n ++ rest) val fac cnt
  = Some (val + fac * n, (cnt + length (venc_fuel fuel n))%nat).
Proof.
  assert (Hlast : forall n rest val fac cnt, n < 128 ->
            vdec_go ([n] ++ rest) val fac cnt = Some (val + fac * n, (cnt + 1)%nat)).
  { intros n rest val fac cnt Hn. cbn [app vdec_go]. apply N.ltb_lt in Hn as E. rewrite E.
    rewrite N.mod_small, Nat.add_1_r by exact Hn. reflexivity. }
  induction fuel as [|k IH]; intros n rest val fac cnt Hsz; cbn [venc_fuel].
  - apply Hlast. exact Hsz.
  - destruct (N.leb_spec n 127) as [Hle|Hgt]; [apply Hlast; lia|].
    cbn [app vdec_go length].
    assert ((n mod 128 + 128) <? 128 = false) as -> by apply N.ltb_ge, N.le_add_l.
    change (n mod 128 + 128) with (n mod 128 + 1 * 128). rewrite N.mod_add, N.mod_mod by discriminate.
    rewrite IH.
    + f_equal. f_equal; [|lia]. pose proof (N.div_mod n 128 ltac:(discriminate)). lia.
    + apply N.div_lt_upper_bound; [discriminate|]. rewrite <- pow128_S. exact Hsz.
Qed.

(* n ranges over the u64 values of the code; the nine continuation steps of venc would carry 2^70 *)
Theorem vdec_venc : forall n rest, n < 2^64 ->
  vdec (venc n ++ rest) = Some (n, length (venc n)).
Proof.
  intros n rest H. unfold vdec, venc. rewrite vdec_go_venc_fuel.
  - f_equal. f_equal. lia.
  - eapply N.lt_trans; [exact H|]. reflexivity.
Qed.

Lemma venc_fuel_len : forall fuel k n, (k <= fuel)%nat -> n < 128 ^ N.of_nat (S k) ->
  (length (venc_fuel fuel n) <= S k)%nat.
Proof.
  induction fuel as [|f IH]; intros k n Hk Hn.
  - cbn. lia.
  - cbn [venc_fuel]. destruct (N.leb_spec n 127) as [Hle|Hgt]; [cbn; lia|].
    cbn [length]. destruct k as [|k'].
    + change (128 ^ N.of_nat 1) with 128 in Hn. lia.
    + apply le_n_S. apply IH; [lia|].
      apply N.div_lt_upper_bound; [discriminate|]. rewrite <- pow128_S. exact Hn.
Qed.

Lemma venc_len9 : forall n, n < 2^63 -> (length (venc n) <= 9)%nat.
Proof. intros n H. apply (venc_fuel_len 9 8); [lia|exact H]. Qed.

Lemma venc_nonempty : forall n, venc n <> [].
Proof. intro n. unfold venc. cbn [venc_fuel]. destruct (n <=? 127); discriminate. Qed.

Lemma vdec_go_cnt : forall buf val fac cnt r c, vdec_go buf val fac cnt = Some (r, c) -> (cnt < c <= cnt + length buf)%nat.
Proof.
  induction buf as [|b rest IH]; intros val fac cnt r c H; cbn in H; [discriminate|].
  destruct (b <? 128).
  - inversion H; subst. cbn [length]. lia.
  - apply IH in H. cbn [length]. lia.
Qed.
Lemma vdec_cnt : forall buf r c, vdec buf = Some (r, c) -> (0 < c <= length buf)%nat.
Proof. intros buf r c H. apply vdec_go_cnt in H. lia. Qed.

Lemma vdecB_go_spec : forall fuel buf val fac cnt r c,
  vdecB_go fuel buf val fac cnt = Some (r, c) <->
  vdec_go buf val fac cnt = Some (r, c) /\ (c - cnt <= fuel)%nat.
Proof.
  induction fuel as [|k IH]; intros buf val fac cnt r c; cbn [vdecB_go].
  - split; [discriminate|]. intros [H Hc]. apply vdec_go_cnt in H. lia.
  - destruct buf as [|b rest]; cbn [vdec_go]; [split; [discriminate|intros [H _]; discriminate]|].
    destruct (b <? 128).
    + split; [intro H; split; [exact H|inversion H; lia]|tauto].
    + rewrite IH. split; intros [H Hc]; (split; [exact H|]); apply vdec_go_cnt in H; lia.
Qed.

Lemma vdecB_venc : forall n rest, n < 2^63 ->
  vdecB (venc n ++ rest) = Some (n, length (venc n)).
Proof.
  intros n rest H. apply vdecB_go_spec. split.
  - apply vdec_venc. eapply N.lt_trans; [exact H|reflexivity].
  - pose proof (venc_len9 n H). lia.
Qed.

Lemma vdecB_cnt : forall buf r c, vdecB buf = Some (r, c) -> (0 < c <= length buf)%nat.
Proof. intros buf r c H. apply vdecB_go_spec in H. exact (vdec_cnt _ _ _ (proj1 H)). Qed.

(* after i bytes the factor is 128^i and the value is below it, so a varint of at most 9 bytes never overflows
   the faithful u64 reader *)
Lemma vdecF_go_short : forall dbg buf val fac cnt r c i,
  vdec_go buf val fac cnt = Some (r, c) ->
  fac = 128 ^ N.of_nat i -> val < fac -> (i + (c - cnt) <= 9)%nat ->
  vdecF_go dbg buf val fac cnt = Ok (r, c).
Proof.
  induction buf as [|b rest IH]; intros val fac cnt r c i H Hfac Hval Hi; [discriminate|].
  cbn [vdec_go] in H. cbn [vdecF_go].
  pose proof (N.mod_lt b 128 ltac:(discriminate)) as Hm. set (m := b mod 128) in *. clearbody m.
  assert (Hc : (cnt < c)%nat) by (destruct (b <? 128); [inversion H; lia|apply vdec_go_cnt in H; lia]).
  assert (Hpow : fac * 128 <= 2^63).
  { rewrite Hfac, N.mul_comm, <- pow128_S. change (2^63) with (128 ^ N.of_nat 9).
    apply N.pow_le_mono_r; [discriminate|lia]. }
  assert (Hm' : fac * m <= fac * 127) by (apply N.mul_le_mono_l; lia).
  assert (H63 : 2^63 < U64) by reflexivity.
  assert ((U64 <=? fac * m) = false) as -> by (apply N.leb_gt; lia).
  rewrite andb_false_r, (N.mod_small (fac * m)) by lia.
  assert ((U64 <=? val + fac * m) = false) as -> by (apply N.leb_gt; lia).
  rewrite andb_false_r, (N.mod_small (val + fac * m)) by lia.
  destruct (b <? 128).
  - inversion H; subst. reflexivity.
  - rewrite (N.mod_small (fac * 128)) by lia.
    apply (IH _ _ _ _ _ (S i) H); [rewrite pow128_S, Hfac; apply N.mul_comm|lia|lia].
Qed.

Lemma vdecB_sound : forall dbg buf r c, vdecB buf = Some (r, c) ->
  vdecF dbg buf = Ok (r, c) /\ vdec buf = Some (r, c).
Proof.
  intros dbg buf r c H. apply vdecB_go_spec in H. destruct H as [H Hc].
  split; [|exact H]. apply (vdecF_go_short dbg buf 0 1 O r c O H); [reflexivity|lia|lia].
Qed.

(* the faithful reader panics on a buffer that ends inside a varint: the F1 witness shape *)
Example vdecF_truncated_panics : vdecF true [128] = Panic /\ vdecF false [128] = Panic.
Proof. split; reflexivity. Qed.
