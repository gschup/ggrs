From GGRS Require Import Base Varint Rle VarintProofs.
From GGRS Require Import LiaSetup.
Open Scope N_scope.

Lemma skipn_app_exact {A} (l1 l2 : list A) : skipn (length l1) (l1 ++ l2) = l2.
Proof. induction l1; cbn; auto. Qed.
Lemma firstn_app_exact {A} (l1 l2 : list A) : firstn (length l1) (l1 ++ l2) = l1.
Proof. induction l1; cbn; f_equal; auto. Qed.

Lemma venc_app_nonempty : forall n X, venc n ++ X <> [].
Proof. intros n X H. apply app_eq_nil in H. exact (venc_nonempty n (proj1 H)). Qed.

Lemma rdec_fuel : forall k1 k2 b, (length b <= k1)%nat -> (length b <= k2)%nat -> rdec k1 b = rdec k2 b.
Proof.
  induction k1 as [|k1 IH]; intros k2 b H1 H2.
  - destruct b; [|cbn in H1; lia]. destruct k2; reflexivity.
  - destruct k2 as [|k2].
    + destruct b; [reflexivity|cbn in H2; lia].
    + cbn [rdec]. destruct b as [|x b']; [reflexivity|].
      set (buf := x :: b') in *.
      destruct (vdec buf) as [[next c]|] eqn:Hv; [|reflexivity].
      apply vdec_cnt in Hv.
      assert (Hs : (length (skipn c buf) <= k1)%nat /\ (length (skipn c buf) <= k2)%nat).
      { rewrite skipn_length. lia. }
      destruct Hs as [Hs1 Hs2].
      destruct (next mod 2 =? 1).
      * rewrite (IH k2 _ Hs1 Hs2). reflexivity.
      * destruct (length (skipn c buf) <? N.to_nat (next / 2))%nat; [reflexivity|].
        rewrite (IH k2); [reflexivity| |]; rewrite skipn_length; lia.
Qed.

Lemma rle_decode_eq : forall buf, buf <> [] ->
  rle_decode buf =
    match vdec buf with
    | None => None
    | Some (next, c) =>
      let rest := skipn c buf in
      if next mod 2 =? 1 then
        match rle_decode rest with None => None | Some t =>
          Some (repeat (if (next / 2) mod 2 =? 1 then 255 else 0) (N.to_nat (next / 4)) ++ t) end
      else
        let l := N.to_nat (next / 2) in
        if (length rest <? l)%nat then None else
        match rle_decode (skipn l rest) with None => None | Some t => Some (firstn l rest ++ t) end
    end.
Proof.
  intros [|x b] Hne; [congruence|]. unfold rle_decode. cbn [length rdec].
  set (buf := x :: b). destruct (vdec buf) as [[next c]|] eqn:Hv; [|reflexivity].
  apply vdec_cnt in Hv. cbv zeta.
  assert (Hl : (length (skipn c buf) <= length b)%nat) by (rewrite skipn_length; cbn [buf length]; lia).
  rewrite (rdec_fuel (length b) (length (skipn c buf))) by lia.
  rewrite (rdec_fuel (length b) (length (skipn (N.to_nat (next / 2)) (skipn c buf)))); [reflexivity| |lia].
  rewrite skipn_length. lia.
Qed.

Section WithCap.
Variable cap : N.

Lemma scan_fuel : forall k1 k2 b acc, (length b <= k1)%nat -> (length b <= k2)%nat ->
  scan cap k1 b acc = scan cap k2 b acc.
Proof.
  induction k1 as [|k1 IH]; intros k2 b acc H1 H2.
  - destruct b; [|cbn in H1; lia]. destruct k2; reflexivity.
  - destruct k2 as [|k2].
    + destruct b; [reflexivity|cbn in H2; lia].
    + cbn [scan]. destruct b as [|x b']; [reflexivity|].
      set (buf := x :: b') in *.
      destruct (vdecB buf) as [[next c]|] eqn:Hv; [|reflexivity].
      apply vdecB_cnt in Hv.
      assert (Hs : (length (skipn c buf) <= k1)%nat /\ (length (skipn c buf) <= k2)%nat).
      { rewrite skipn_length. lia. }
      destruct Hs as [Hs1 Hs2].
      destruct (cap <? _); [reflexivity|].
      destruct (next mod 2 =? 1).
      * apply IH; assumption.
      * destruct (N.of_nat (length (skipn c buf)) <? next / 2); [reflexivity|].
        apply IH; rewrite skipn_length; lia.
Qed.

Definition scans (buf : list N) (acc : N) := scan cap (length buf) buf acc.

Lemma scans_eq : forall buf acc, buf <> [] ->
  scans buf acc =
    match vdecB buf with
    | None => None
    | Some (next, c) =>
      let rest := skipn c buf in
      let slice := if next mod 2 =? 1 then next / 4 else next / 2 in
      if cap <? acc + slice then None else
      if next mod 2 =? 1 then scans rest (acc + slice)
      else if N.of_nat (length rest) <? slice then None
      else scans (skipn (N.to_nat slice) rest) (acc + slice)
    end.
Proof.
  intros [|x b] acc Hne; [congruence|]. unfold scans. cbn [length scan].
  set (buf := x :: b). destruct (vdecB buf) as [[next c]|] eqn:Hv; [|reflexivity].
  apply vdecB_cnt in Hv. cbv zeta.
  assert (Hl : (length (skipn c buf) <= length b)%nat) by (rewrite skipn_length; cbn [buf length]; lia).
  destruct (cap <? _); [reflexivity|]. destruct (next mod 2 =? 1).
  - apply scan_fuel; lia.
  - destruct (_ <? _); [reflexivity|]. apply scan_fuel; rewrite skipn_length; lia.
Qed.

Definition Tok (o d : list N) : Prop :=
  (forall X t, rle_decode X = Some t -> rle_decode (o ++ X) = Some (d ++ t)) /\
  (forall X acc r, acc + N.of_nat (length d) <= cap ->
     scans X (acc + N.of_nat (length d)) = Some r -> scans (o ++ X) acc = Some r).

Lemma Tok_nil : Tok [] [].
Proof.
  split.
  - intros X t H. exact H.
  - intros X acc r _ H. cbn [length app] in *. rewrite N.add_0_r in H. exact H.
Qed.

Lemma Tok_app : forall o1 d1 o2 d2, Tok o1 d1 -> Tok o2 d2 -> Tok (o1 ++ o2) (d1 ++ d2).
Proof.
  intros o1 d1 o2 d2 [H1 G1] [H2 G2]. split.
  - intros X t H. rewrite <- !app_assoc. apply H1. apply H2. exact H.
  - intros X acc r Hc H. rewrite <- app_assoc. rewrite app_length in *.
    apply G1; [lia|]. apply G2; [lia|].
    replace (acc + N.of_nat (length d1) + N.of_nat (length d2))
      with (acc + N.of_nat (length d1 + length d2)) by lia. exact H.
Qed.

Lemma contig_header : forall l p, p = 0 \/ p = 255 ->
  let n := l * 4 + 1 + (if p =? 255 then 2 else 0) in
  n mod 2 = 1 /\ n / 4 = l /\ (if (n / 2) mod 2 =? 1 then 255 else 0) = p.
Proof.
  intros l p Hp n. assert (Hn : exists b, b < 2 /\ n = l * 4 + 1 + 2 * b /\ p = 255 * b).
  { subst n. destruct Hp as [-> | ->]; [exists 0|exists 1]; repeat split; reflexivity. }
  destruct Hn as (b & Hb & -> & ->).
  rewrite <- (N.mod_unique _ 2 (l * 2 + b) 1), <- (N.div_unique _ 4 l (1 + 2 * b)),
          <- (N.div_unique _ 2 (l * 2 + b) 1), <- (N.mod_unique _ 2 l b) by lia.
  assert (b = 0 \/ b = 1) as [-> | ->] by lia; auto.
Qed.

Lemma Tok_contig : forall l p, (p = 0 \/ p = 255) -> l < 2^61 -> Tok (wr_contig l p) (repeat p (N.to_nat l)).
Proof.
  intros l p Hp Hl. unfold wr_contig. destruct (contig_header l p Hp) as (Hodd & Hdiv & Hbit).
  set (n := l * 4 + 1 + (if p =? 255 then 2 else 0)) in *.
  assert (Hn : n < 2^63) by (subst n; destruct (p =? 255); lia).
  apply N.eqb_eq in Hodd. split.
  - intros X t HX. rewrite rle_decode_eq by apply venc_app_nonempty.
    rewrite vdec_venc by lia. cbv zeta. rewrite skipn_app_exact, Hodd, HX, Hdiv, Hbit. reflexivity.
  - intros X acc r Hc HX. rewrite repeat_length, N2Nat.id in *.
    rewrite scans_eq by apply venc_app_nonempty.
    rewrite vdecB_venc by exact Hn. cbv zeta. rewrite skipn_app_exact, Hodd, Hdiv.
    apply N.ltb_ge in Hc as ->. exact HX.
Qed.

Lemma Tok_nonc : forall nc, N.of_nat (length nc) < 2^62 -> Tok (wr_nonc nc) nc.
Proof.
  intros nc Hl. unfold wr_nonc.
  set (n := 2 * N.of_nat (length nc)).
  assert (Hn : n < 2^63) by (subst n; lia).
  assert (Heven : n mod 2 =? 1 = false) by (subst n; rewrite N.mul_comm, N.mod_mul; [reflexivity|discriminate]).
  assert (Hdiv : n / 2 = N.of_nat (length nc)) by (subst n; rewrite N.mul_comm; apply N.div_mul; discriminate).
  split.
  - intros X t HX. rewrite <- app_assoc, rle_decode_eq by apply venc_app_nonempty.
    rewrite vdec_venc by lia. cbv zeta. rewrite skipn_app_exact, Heven, Hdiv, Nat2N.id.
    assert ((length (nc ++ X) <? length nc)%nat = false) as -> by (apply Nat.ltb_ge; rewrite app_length; lia).
    rewrite skipn_app_exact, firstn_app_exact, HX. reflexivity.
  - intros X acc r Hc HX. rewrite <- app_assoc, scans_eq by apply venc_app_nonempty.
    rewrite vdecB_venc by exact Hn. cbv zeta. rewrite skipn_app_exact, Heven, Hdiv, Nat2N.id.
    apply N.ltb_ge in Hc as ->.
    assert ((N.of_nat (length (nc ++ X)) <? N.of_nat (length nc)) = false) as ->
      by (apply N.ltb_ge; rewrite app_length; lia).
    rewrite skipn_app_exact. exact HX.
Qed.

Definition pending (s : est) : list N :=
  if contig s then repeat (prev s) (N.to_nat (len s)) else nonc s.

(* before byte i: the output encodes done, and done ++ pending s is the input read so far.
   inv_n: at index 0 no literal has been collected: estep does not flush there (its `i > offset` test),
   so a run byte at index 0 keeps nonc s as it is, and that is only right when it is empty *)
Record Inv (s : est) (i : nat) (done : list N) : Prop := {
  inv_tok : Tok (out s) done;
  inv_c : contig s = true -> (prev s = 0 \/ prev s = 255) /\ nonc s = [] /\ 1 <= len s;
  inv_n : contig s = false -> i = O -> nonc s = [] }.

Lemma estep_inv : forall s i done b,
  Inv s i done ->
  N.of_nat (length (done ++ pending s)) + 1 < 2^61 ->
  exists done', Inv (estep s i b) (S i) done' /\
                done' ++ pending (estep s i b) = (done ++ pending s) ++ [b].
Proof.
  intros s i done b [Htok Hc Hn] Hsz. rewrite app_length in Hsz.
  assert (Hb : (b =? 0) || (b =? 255) = true -> b = 0 \/ b = 255) by lia.
  unfold estep, pending in *.
  destruct (contig s) eqn:Ec.
  - destruct (Hc eq_refl) as (Hp & Hnc & Hl). rewrite repeat_length in Hsz.
    destruct (N.eqb_spec b (prev s)) as [->|Eb]; cbn [andb].
    + exists done. split.
      * constructor; cbn; auto. intros _. repeat split; auto. lia.
      * cbn. replace (N.to_nat (len s + 1)) with (S (N.to_nat (len s))) by lia.
        cbn [repeat]. rewrite repeat_cons, app_assoc. reflexivity.
    + pose proof (Tok_app _ _ _ _ Htok (Tok_contig (len s) (prev s) Hp ltac:(lia))) as Htok1.
      exists (done ++ repeat (prev s) (N.to_nat (len s))).
      destruct ((b =? 0) || (b =? 255)); (split; [constructor; cbn; auto; try discriminate|]).
      * intros _. repeat split; auto. lia.
      * reflexivity.
      * cbn. rewrite Hnc. reflexivity.
  - cbn [andb]. destruct ((b =? 0) || (b =? 255)).
    + destruct (Nat.eqb_spec i 0) as [Ei|Ei]; cbn [negb andb].
      * (* a run starts at index 0: nothing is flushed, and by inv_n nothing had to be *)
        rewrite (Hn eq_refl Ei). exists done. split.
        -- constructor; cbn; auto; try discriminate. intros _. repeat split; auto. lia.
        -- cbn. rewrite app_nil_r. reflexivity.
      * exists (done ++ nonc s). split.
        -- constructor; cbn; auto; try discriminate.
           ++ apply Tok_app; [exact Htok|]. apply Tok_nonc. lia.
           ++ intros _. repeat split; auto. lia.
        -- reflexivity.
    + exists done. split.
      * constructor; cbn; auto; discriminate.
      * cbn. rewrite app_assoc. reflexivity.
Qed.

Lemma erun_inv : forall bs s i done,
  Inv s i done ->
  N.of_nat (length (done ++ pending s) + length bs) < 2^61 ->
  exists done', Inv (erun s i bs) (i + length bs) done' /\
                done' ++ pending (erun s i bs) = (done ++ pending s) ++ bs.
Proof.
  induction bs as [|b r IH]; intros s i done HI Hsz.
  - exists done. cbn. rewrite Nat.add_0_r, app_nil_r. auto.
  - cbn [erun length].
    destruct (estep_inv s i done b HI) as (d1 & HI1 & E1).
    { cbn [length] in Hsz. lia. }
    destruct (IH (estep s i b) (S i) d1 HI1) as (d2 & HI2 & E2).
    { rewrite E1, app_length. cbn [length] in *. lia. }
    exists d2. split.
    + replace (i + S (length r))%nat with (S i + length r)%nat by lia. exact HI2.
    + rewrite E2, E1, <- app_assoc. reflexivity.
Qed.

Lemma rle_encode_tok : forall bs, N.of_nat (length bs) < 2^61 -> Tok (rle_encode bs) bs.
Proof.
  intros bs Hsz. unfold rle_encode.
  set (s0 := mk 0 false 0 [] []).
  assert (HI0 : Inv s0 O []).
  { constructor; cbn; auto; try discriminate. apply Tok_nil. }
  destruct (erun_inv bs s0 O [] HI0 Hsz) as (d & [Htok Hc Hn] & E).
  change ([] ++ pending s0) with (@nil N) in E. cbn [app] in E.
  set (s := erun s0 0 bs) in *. rewrite <- E in Hsz |- *. rewrite app_length in Hsz.
  unfold efinish, pending in *.
  destruct (contig s); (apply Tok_app; [exact Htok|]).
  - rewrite repeat_length in Hsz. apply Tok_contig; [apply Hc; reflexivity|lia].
  - apply Tok_nonc. lia.
Qed.

Hypothesis Hcap : cap < 2^61.

Theorem rle_roundtrip : forall bs, N.of_nat (length bs) < 2^61 ->
  rle_decode (rle_encode bs) = Some bs.
Proof using Hcap.
  intros bs Hsz. destruct (rle_encode_tok bs Hsz) as [H _].
  specialize (H [] [] eq_refl). rewrite !app_nil_r in H. exact H.
Qed.

Theorem rle_encode_scans : forall bs, N.of_nat (length bs) <= cap ->
  scan cap (length (rle_encode bs)) (rle_encode bs) 0 = Some (N.of_nat (length bs)).
Proof.
  intros bs Hsz. destruct (rle_encode_tok bs ltac:(lia)) as [_ H].
  specialize (H [] 0 (N.of_nat (length bs)) ltac:(lia) eq_refl). rewrite !app_nil_r in H. exact H.
Qed.

End WithCap.

Lemma scan_sound : forall cap dbg fuel buf acc n,
  cap < U64 -> acc <= cap ->
  scan cap fuel buf acc = Some n ->
  lenF dbg fuel buf acc = Ok n /\ n <= cap /\
  exists d, rdec fuel buf = Some d /\ fillF dbg fuel buf = d /\ n = acc + N.of_nat (length d).
Proof.
  intros cap dbg. induction fuel as [|k IH]; intros [|x b'] acc n Hcap Hacc H;
    cbn [scan] in H; try discriminate; cbn [lenF rdec fillF].
  1, 2: inversion H; subst; repeat split; auto; exists []; repeat split; cbn; lia.
  set (buf := x :: b') in *.
  destruct (vdecB buf) as [[next c]|] eqn:Hv; [|discriminate].
  destruct (vdecB_sound dbg _ _ _ Hv) as [HF HI]. rewrite HF, HI. cbv zeta in *.
  set (slice := if next mod 2 =? 1 then next / 4 else next / 2) in *.
  destruct (cap <? acc + slice) eqn:Ecap; [discriminate|]. apply N.ltb_ge in Ecap.
  assert ((U64 <=? acc + slice) = false) as -> by (apply N.leb_gt; lia).
  rewrite andb_false_r, (N.mod_small (acc + slice) U64) by lia.
  destruct (next mod 2 =? 1) eqn:Eodd; subst slice.
  - destruct (IH _ _ _ Hcap Ecap H) as (A & B & d & C1 & C2 & C3). rewrite C1, C2.
    repeat split; auto. eexists; repeat split.
    rewrite app_length, repeat_length. lia.
  - destruct (N.of_nat (length (skipn c buf)) <? next / 2) eqn:El; [discriminate|]. apply N.ltb_ge in El.
    assert ((length (skipn c buf) <? N.to_nat (next / 2))%nat = false) as -> by (apply Nat.ltb_ge; lia).
    destruct (IH _ _ _ Hcap Ecap H) as (A & B & d & C1 & C2 & C3). rewrite C1, C2.
    repeat split; auto. eexists; repeat split.
    rewrite app_length, firstn_length. lia.
Qed.

Theorem validated_rle_total : forall cap dbg buf, cap < U64 ->
  validate cap buf = true ->
  exists d, rleF dbg buf = Ok d /\ rle_decode buf = Some d /\ N.of_nat (length d) <= cap.
Proof.
  intros cap dbg buf Hcap Hv. unfold validate in Hv.
  destruct (scan cap (length buf) buf 0) as [n|] eqn:Hs; [|discriminate].
  destruct (scan_sound cap dbg _ _ 0 _ Hcap (N.le_0_l cap) Hs) as (A & B & d & C1 & C2 & C3).
  exists d. unfold rleF, rle_decode. rewrite A, C1, C2. repeat split; auto. lia.
Qed.
