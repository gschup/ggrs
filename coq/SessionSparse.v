(* Sparse saving (SessionBuilder::with_sparse_saving_mode): only the state of the last saved frame is
   ever loaded.  The request lists of a sparse-saving session are executable and frame-consistent
   (C02), conditionally on no assert firing, for every operation sequence - the counterpart of
   SessionProofs.requests_executable, which covers dense saving and lockstep.  Both rest on the
   same lemma about one call in rollback mode (SessionProofs.sstep_roll_exec, invariant JR); this file
   states the invariant JS of the sparse mode as JR with sparse saving on. *)
From GGRS Require Import Base Consts Queue QueueProofs QueueTheorems Sync P2P Session SessionProofs.
From GGRS Require Import LiaSetup.
Open Scope Z_scope.

(* the one cell that matters: the last saved frame's, in the sync layer's and in the game's view *)
Definition SparseCells (w : Z) (s : sync) (g : game) : Prop :=
  s_maxpred s = w /\ Z.of_nat (length (s_cells s)) = w + 1 /\ Z.of_nat (length (g_cells g)) = w + 1 /\
  (s_last_saved s = NULL \/
   (0 <= s_last_saved s <= s_current s /\ cell_frame s (s_last_saved s) = s_last_saved s /\
    nth (Z.to_nat (s_last_saved s mod (w + 1))) (g_cells g) (NULL, []) =
      (s_last_saved s, firstn (Z.to_nat (s_last_saved s)) (g_hist g)))).

Record JS (w : Z) (p : p2p) (g : game) : Prop := {
  js_w : 1 <= w;
  js_mp : ps_maxpred p = w;
  js_sparse : ps_sparse p = true;
  js_frame : gframe g = s_current (ps_sync p);
  js_cur : 0 <= s_current (ps_sync p);
  js_cells : SparseCells w (ps_sync p) g;
}.

Lemma Cells_sparse : forall w lo s g, 0 <= s_current s ->
  (Cells w true lo (s_current s) s g <-> SparseCells w s g).
Proof.
  intros w lo s g Hc. unfold Cells, SparseCells, cells_wf, loadable, cell_ok. split.
  - intros ((A & B & C) & D & E). specialize (D eq_refl). repeat (split; [assumption|]).
    destruct (Z.eq_dec (s_last_saved s) NULL) as [En|En]; [left; exact En|right].
    unfold NULL in *. split; [lia|]. apply E. split; [reflexivity|lia].
  - intros (A & B & C & D). split; [auto|]. split.
    + intros _. destruct D as [->|(D & _)]; unfold NULL; lia.
    + intros f (-> & Hf). destruct D as [D|(_ & D)]; [unfold NULL in D; lia|exact D].
Qed.

Lemma JS_JR : forall w p g, JS w p g <-> JR w p g /\ ps_sparse p = true.
Proof.
  intros w p g. split.
  - intros [A B C D E F]. split; [|exact C]. constructor; try assumption. rewrite C. apply Cells_sparse; assumption.
  - intros ([A B C D E] & Hsp). rewrite Hsp in E. constructor; try assumption. eapply Cells_sparse; eassumption.
Qed.

Lemma SparseCells_cell : forall w s g, SparseCells w s g -> 0 <= s_last_saved s ->
  cell_frame s (s_last_saved s) = s_last_saved s.
Proof. intros w s g (_ & _ & _ & [X|(_ & X & _)]) H; [unfold NULL in X; lia|exact X]. Qed.

Section SparseExec.
Variable predict : Z -> Z.

Lemma sparse_sstep_exec : forall p op sr g w,
  sstep predict p op = Ok sr -> JS w p g ->
  exists g', exec w g (o_requests (sr_out sr)) = Some g' /\ JS w (sr_state sr) g' /\
    (s_current (ps_sync (sr_state sr)) = s_current (ps_sync p) \/
     (op = SAdvance /\ s_current (ps_sync (sr_state sr)) = s_current (ps_sync p) + 1)) /\
    loads_in_window w (s_current (ps_sync p)) (o_requests (sr_out sr)).
Proof.
  intros p op sr g w H J. apply JS_JR in J. destruct J as (HG & Hsp).
  destruct (sstep_roll_exec predict p op sr g w H HG) as (g' & A1 & A2 & A3 & A4).
  exists g'. split; [exact A1|]. split; [apply JS_JR; split; [exact A2|congruence]|exact A4].
Qed.

Theorem sparse_requests_executable : forall ops p0 g0 w p outs,
  JS w p0 g0 -> srun predict p0 ops = Ok (p, outs) ->
  exists g, exec_outs w g0 outs = Some g /\ JS w p g.
Proof.
  intros ops p0 g0 w. apply (srun_preserves predict (JS w) w). intros p op sr g H J.
  destruct (sparse_sstep_exec p op sr g w H J) as (g' & A1 & A2 & _). exists g'. split; assumption.
Qed.

End SparseExec.

Lemma JS_start : forall n w d kinds eps nspec, 1 <= w ->
  JS w (session_start n w true d kinds eps nspec) (game0 w).
Proof.
  intros n w d kinds eps nspec Hw.
  assert (Hs : ((w =? 0) && true) = false) by lia.
  constructor; unfold session_start, p2p_new, sync_new, game0, gframe;
    cbn [with_running ps_maxpred ps_sync ps_sparse with_queues s_current s_maxpred s_cells s_last_saved g_hist g_cells length Z.of_nat];
    rewrite ?Hs; try reflexivity; try lia.
  unfold SparseCells. cbn [with_queues s_maxpred s_cells s_last_saved g_cells]. rewrite !repeat_length.
  split; [reflexivity|]. split; [lia|]. split; [lia|]. left. reflexivity.
Qed.
