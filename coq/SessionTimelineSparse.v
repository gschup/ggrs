(* C01's timeline theorems for SPARSE SAVING.  SessionTimeline.v states the run theorems once for every
   mode (section Generic: the mode supplies "every operation in the space succeeds and keeps the cells
   invariant" and "advance_frame keeps the timeline invariant TI").  This file supplies the two for sparse
   saving - the rollback step there is `load last_saved_frame, re-simulate, save the confirmed frame on the
   way`, possibly twice in one call (misprediction, then the forced save of check_last_saved_state) - and
   instantiates the theorems. *)
From GGRS Require Import Base Consts Queue QueueProofs QueueTheorems Sync P2P Session SessionProofs SessionSparse SessionProgress SessionSparse2 SessionTimeline.
From GGRS Require Import LiaSetup.
Open Scope Z_scope.

(* SX without the ghost histories: what the session holds of each player is read off the connection statuses *)
Record SXs (p : p2p) : Prop := {
  sxs_range : -1 <= s_last_saved (ps_sync p) <= s_current (ps_sync p);
  sxs_null : s_last_saved (ps_sync p) = NULL -> s_current (ps_sync p) = 0;
  sxs_conf : s_last_confirmed (ps_sync p) <= s_last_saved (ps_sync p);
  sxs_held : Forall (fun st => s_last_saved (ps_sync p) <= Z.max 0 (cs_last st)) (ps_status p);
  sxs_fi : Forall (fun q => q_first_incorrect q <> NULL -> s_last_saved (ps_sync p) <= q_first_incorrect q) (s_queues (ps_sync p));
}.

Lemma held_status_ghost : forall S (st : list cstat) (gs : list ghost),
  Forall2 (fun s g => cs_last s = hlen (fst g) - 1) st gs ->
  (Forall (fun s => S <= Z.max 0 (cs_last s)) st <-> Forall (fun g : ghost => S <= Z.max 0 (hlen (fst g) - 1)) gs).
Proof.
  intros S st gs H. induction H as [|s g st gs Hsg H IH]; [split; constructor|].
  split; intros X; inversion X; subst; constructor; try (apply IH; assumption); lia.
Qed.

Lemma SX_of_SXs : forall sp w d p gs, QSg sp w d p gs -> SXs p -> SX p gs.
Proof.
  intros sp w d p gs HQS [A B C D E]. constructor; try assumption.
  apply (held_status_ghost _ _ _ (qs_last _ _ _ _ HQS)). exact D.
Qed.
Lemma SXs_of_SX : forall sp w d p gs, QSg sp w d p gs -> SX p gs -> SXs p.
Proof.
  intros sp w d p gs HQS [A B C D E]. constructor; try assumption.
  apply (held_status_ghost _ _ _ (qs_last _ _ _ _ HQS)). exact D.
Qed.

Section SparseTimeline.
Variable predict : Z -> Z.
Hypothesis predict_idem : forall x, predict (predict x) = predict x.
Hypothesis predict_zero : predict 0 = 0.

Notation GIl := (GIl predict).
Notation TI := (TI predict).
Notation truthful_lt := (truthful_lt predict).
Notation emitted := (emitted predict).

(* the forced save, seen from the game's history *)
Lemma check_gi : forall p gs L S cf o p1 o1 G,
  check_last_saved_state predict p S cf o = Ok (p1, o1) ->
  ps_sparse p = true -> connected (ps_status p) -> length (ps_status p) = length (s_queues (ps_sync p)) ->
  QsI (s_current (ps_sync p)) L (s_queues (ps_sync p)) gs -> all_clean (s_queues (ps_sync p)) ->
  L <= s_last_saved (ps_sync p) -> -1 <= L ->
  glen G = s_current (ps_sync p) -> GIl (s_current (ps_sync p)) G (s_queues (ps_sync p)) gs ->
  PNl (s_current (ps_sync p)) (s_queues (ps_sync p)) gs ->
  exists R, o_requests o1 = o_requests o ++ R /\ emitted (s_current (ps_sync p)) gs G R (s_queues (ps_sync p1)).
Proof.
  intros p gs L S cf o p1 o1 G E Hsp Hcon Hlen HQ Hcl HLS HL HG HGI HPN.
  apply check_last_saved_state_ok in E.
  destruct (_ <? ps_maxpred p).
  - injection E as -> ->. exists []. rewrite app_nil_r. split; [reflexivity|apply emitted_nil; assumption].
  - destruct E as (E & _). destruct (_ <=? cf).
    + apply save_p2p_ok in E. destruct E as (_ & -> & ->).
      exists [RSave (s_current (ps_sync p))]. cbn [add_req o_requests with_sync ps_sync saved s_queues].
      split; [reflexivity|]. apply (emitted_save predict _ _ _ [] _ _). apply emitted_nil; assumption.
    + apply (adjust_gi_g predict p gs L S cf o p1 o1 G E Hcon Hlen HQ); unfold frame_to_load; rewrite ?Hsp; try assumption.
      eapply Forall_impl; [|exact Hcl]. cbv beta. intros q Hq En. contradiction.
Qed.

(* the rollback step of a sparse-saving session: progress and timeline together *)
Lemma sparse_rollback_ti : forall p gs g w d o cf G,
  QSg true w d p gs -> JS w p g -> SX p gs -> 0 <= s_last_saved (ps_sync p) ->
  confirmed_frame p = Ok cf -> s_last_confirmed (ps_sync p) <= cf ->
  Forall (fun c => cs_last c < I32MAX) (ps_status p) -> TI p gs G ->
  HRti predict p gs cf o G.
Proof using predict_idem.
  intros p gs g w d o cf G HQS HJS HSX HS0 Ecf HLcf Hbnd (HG & HGI & HPN).
  destruct (sparse_rollback predict p gs g w d o cf HQS HJS HSX HS0 Ecf HLcf Hbnd)
    as (p1 & o1 & HR & _ & _ & p2 & o2 & E2 & E1 & Hsp2 & Hst2 & Hc2 & HQ2 & Hcl2 & HLS2).
  destruct (qs_mode _ _ _ _ HQS) as (_ & Hsp & _). destruct (qs_n _ _ _ _ HQS) as (_ & _ & _ & Hn4).
  destruct (qs_frames _ _ _ _ HQS) as ((HL1 & _) & _). pose proof (QsI_length _ _ _ _ (qs_qs _ _ _ _ HQS)) as Hlq.
  assert (Hlen : length (ps_status p) = length (s_queues (ps_sync p))) by lia.
  destruct (first_rollback_gi predict p gs _ cf o p2 o2 G E2 (qs_conn _ _ _ _ HQS) Hlen (qs_qs _ _ _ _ HQS) HL1) as (R1 & Ho2 & HE2);
    try assumption.
  { intros fi _ _. unfold frame_to_load. rewrite Hsp. exact (conj (sx_conf _ _ HSX) (sx_fi _ _ HSX)). }
  assert (Hlen2 : length (ps_status p2) = length (s_queues (ps_sync p2))) by (rewrite Hst2; pose proof (QsI_length _ _ _ _ HQ2); lia).
  assert (Hcon2 : connected (ps_status p2)) by (rewrite Hst2; exact (qs_conn _ _ _ _ HQS)).
  rewrite <- Hc2 in HQ2, HE2. destruct HE2 as (HGI2 & HG2 & HPN2 & HTR2).
  destruct (check_gi p2 gs _ _ cf o2 p1 o1 (replay_hist G R1) E1 Hsp2 Hcon2 Hlen2 HQ2 Hcl2 HLS2 HL1 HG2 HGI2 HPN2)
    as (R2 & Ho1 & HE1).
  exists p1, o1, (R1 ++ R2). split; [exact HR|]. split; [rewrite Ho1, Ho2, app_assoc; reflexivity|].
  rewrite Hc2 in *. exact (emitted_app predict _ _ _ _ _ _ _ (conj HGI2 (conj HG2 (conj HPN2 HTR2))) HE1).
Qed.

(* the cells invariant of sparse saving, as the generic run theorems want it *)
Definition CIs (w : Z) (p : p2p) (g : game) : Prop := JS w p g /\ SXs p.

Lemma sparse_CI_step : forall p gs g w d o,
  QSg true w d p gs -> CIs w p g -> op_ok p o = true ->
  exists s g', sstep predict p o = Ok s /\ exec w g (o_requests (sr_out s)) = Some g' /\ CIs w (sr_state s) g'.
Proof.
  intros p gs g w d o HQS (HJS & HX) Hok.
  destruct (sparse_step_in_space predict p gs g w d o HQS HJS (SX_of_SXs _ _ _ _ _ HQS HX) Hok) as (s & gs' & g' & Es & HQ' & Ex & HJ' & HX').
  exists s, g'. split; [exact Es|]. split; [exact Ex|]. split; [exact HJ'|exact (SXs_of_SX _ _ _ _ _ HQ' HX')].
Qed.

Lemma sparse_CI_frame : forall w p g, CIs w p g -> gframe g = s_current (ps_sync p).
Proof. intros w p g (HJ & _). exact (js_frame _ _ _ HJ). Qed.

Lemma sparse_CI_start : forall n w d kinds eps nspec, 1 <= w -> CIs w (session_start n w true d kinds eps nspec) (game0 w).
Proof.
  intros n w d kinds eps nspec Hw. split; [apply JS_start; exact Hw|].
  pose proof (SX_start n w d kinds eps nspec) as [A B C D E]. constructor; try assumption.
  apply Forall_forall. intros st Hst. unfold session_start, p2p_new in Hst. cbn [with_running ps_status] in Hst.
  apply repeat_spec in Hst. subst st.
  change (s_last_saved (ps_sync (session_start n w true d kinds eps nspec))) with NULL. unfold cs_default, NULL. cbn [cs_last]. lia.
Qed.

(* advance_frame of a sparse-saving session keeps the timeline invariant *)
Lemma sparse_advance_timeline : forall p gs g w d p' o r G,
  advance predict p = Ok (p', o, r) ->
  QSg true w d p gs -> CIs w p g -> Forall (fun c => cs_last c < I32MAX) (ps_status p) ->
  Forall (fun c => cs_last c + 1 < I32MAX) (ps_status p) -> TI p gs G ->
  exists gs', QSg true w d p' gs' /\ TI p' gs' (replay_hist G (o_requests o)) /\
    hist_step d (ps_pending p) (local_handles p) gs gs' /\ ps_kinds p' = ps_kinds p /\ spec_step p gs' o p' /\
    Forall (truthful_lt (s_current (ps_sync p')) gs') (adv_frames G (o_requests o)) /\ sends_adv p gs gs' p' o.
Proof using predict_idem.
  intros p gs g w d p' o r G E HQS (HJS & HXs) Hbnd _ HTI.
  apply (advance_timeline_g predict true p gs w d p' o r G E HQS (js_w _ _ _ HJS) Hbnd HTI).
  intros p1 o1 cf E1 HQS1 HTI1 Ecf HLcf.
  destruct (sparse_first_save p gs g w d p1 o1 HQS HJS (SX_of_SXs _ _ _ _ _ HQS HXs) E1) as (g1 & HJS1 & HSX1 & HS1).
  assert (Hbnd1 : Forall (fun c => cs_last c < I32MAX) (ps_status p1)).
  { destruct (first_save_inv _ _ _ E1) as (-> & _). exact Hbnd. }
  exact (sparse_rollback_ti p1 gs g1 w d o1 cf G HQS1 HJS1 HSX1 HS1 Ecf HLcf Hbnd1 HTI1).
Qed.

Definition sparse_run_timeline :=
  run_timeline_g predict predict_idem predict_zero true CIs sparse_CI_step sparse_advance_timeline sparse_CI_frame.
Definition sparse_confirmed_frames_use_held_inputs :=
  confirmed_frames_use_held_inputs_g predict predict_idem predict_zero true CIs sparse_CI_step sparse_advance_timeline sparse_CI_frame sparse_CI_start.
Definition sparse_host_broadcast_and_game :=
  host_broadcast_and_game_g predict predict_idem predict_zero true CIs sparse_CI_step sparse_advance_timeline sparse_CI_frame sparse_CI_start.
Definition sparse_sends_and_receipts :=
  sends_and_receipts_g predict predict_idem predict_zero true CIs sparse_CI_step sparse_advance_timeline sparse_CI_frame sparse_CI_start.
Definition sparse_confirmed_frames_use_delivered_inputs :=
  confirmed_frames_use_delivered_inputs_g predict predict_idem predict_zero true CIs sparse_CI_step sparse_advance_timeline sparse_CI_frame sparse_CI_start.
Definition sparse_held_inputs_step :=
  held_inputs_step_g predict predict_idem predict_zero true CIs sparse_CI_step sparse_advance_timeline sparse_CI_frame.
Definition sparse_host_broadcast_is_confirmed_timeline :=
  host_broadcast_is_confirmed_timeline_g predict predict_idem predict_zero true CIs sparse_CI_step sparse_advance_timeline sparse_CI_frame sparse_CI_start.

Definition sparse_invariants_reachable :=
  invariants_reachable_g predict predict_idem predict_zero true CIs sparse_CI_step sparse_advance_timeline sparse_CI_frame sparse_CI_start.
Definition sparse_requests_truthful_step :=
  requests_truthful_step_g predict predict_idem predict_zero true CIs sparse_CI_step sparse_advance_timeline sparse_CI_frame.
Definition sparse_confirmed_frame_monotone :=
  confirmed_frame_monotone_g predict predict_idem predict_zero true CIs sparse_CI_step sparse_advance_timeline sparse_CI_frame.

End SparseTimeline.
