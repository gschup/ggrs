(* C13: SyncTestSession never raises a false alarm for a deterministic game, its request lists obey
   the request contract with Confirmed, correctly delayed inputs, and a game whose saves of one frame
   F >= 2 differ is caught at the call made at current_frame = max(F, check_distance) + 2.
   Induction over the calls of a run (SyncTestSpec.st_run).  The checksum in every cell and the one a
   frame enters the history with are functions of the oracle and the number of the call (st_cs, st_fr),
   so what the n-th call reports is a list st_badn n that does not mention the session; a run goes on
   while it is empty (st_run_clean, st_run_caught), and the three results are arithmetic on st_badn. *)
From GGRS Require Import Base Consts Queue QueueProofs Sync P2P ModelLists SyncTest SyncTestSpec SyncTestQ Builder BuilderSpec BuilderProofs.
From GGRS Require Import LiaSetup.
Open Scope Z_scope.

Lemma st_opt_eqb_eq : forall a b, st_opt_eqb a b = true <-> a = b.
Proof.
  intros [a|] [b|]; cbn; split; intro H; try discriminate; try reflexivity.
  - f_equal. lia.
  - inversion H. lia.
Qed.

Lemma st_opt_eqb_refl : forall a, st_opt_eqb a a = true.
Proof. intro a. apply st_opt_eqb_eq. reflexivity. Qed.

Lemma st_list_eqb_refl {A} (e : A -> A -> bool) : (forall x, e x x = true) -> forall l, st_list_eqb e l l = true.
Proof. intros He. induction l as [|x r IH]; cbn; [reflexivity|]. rewrite He, IH. reflexivity. Qed.

Lemma st_tl_eqb_refl : forall t, st_tl_eqb t t = true.
Proof.
  apply st_list_eqb_refl. apply st_list_eqb_refl. intros [v s]. cbn. rewrite Z.eqb_refl. destruct s; reflexivity.
Qed.

Lemma st_get_app : forall h f v x,
  st_hist_get (h ++ [(f, v)]) x =
  match st_hist_get h x with Some y => Some y | None => if f =? x then Some v else None end.
Proof.
  induction h as [|[k' v'] r IH]; intros f v x; cbn [app st_hist_get]; [reflexivity|].
  destruct (k' =? x); [reflexivity|apply IH].
Qed.

Lemma st_get_filter : forall (p : Z -> bool) h x,
  st_hist_get (filter (fun e : Z * option Z => p (fst e)) h) x = if p x then st_hist_get h x else None.
Proof.
  intros p. induction h as [|[k' v'] r IH]; intro x; cbn [filter st_hist_get fst].
  - destruct (p x); reflexivity.
  - destruct (p k') eqn:Ep; cbn [st_hist_get]; destruct (Z.eqb_spec k' x) as [->|Hn]; rewrite ?Ep; auto.
    rewrite IH. rewrite Ep. reflexivity.
Qed.

Lemma st_filter_none {A} (p : A -> bool) : forall l, (forall x, In x l -> p x = false) -> filter p l = [].
Proof.
  induction l as [|x r IH]; intro H; cbn; [reflexivity|]. rewrite (H x (or_introl eq_refl)).
  apply IH. intros y Hy. apply H. right. exact Hy.
Qed.

Lemma st_filter_single {A} (p : A -> bool) : forall l F0, NoDup l -> In F0 l -> p F0 = true ->
  (forall x, In x l -> x <> F0 -> p x = false) -> filter p l = [F0].
Proof.
  induction l as [|y r IH]; intros F0 Hnd Hin HpF Hoth; [destruct Hin|].
  inversion Hnd as [|? ? Hny Hnd']; subst. cbn [filter]. destruct Hin as [->|Hin].
  - rewrite HpF. f_equal. apply st_filter_none. intros x Hx. apply Hoth; [right; exact Hx|]. intro; subst. contradiction.
  - rewrite (Hoth y (or_introl eq_refl)) by (intro; subst; contradiction).
    apply IH; auto. intros x Hx. apply Hoth. right. exact Hx.
Qed.

Lemma st_map_repeat {A B} (f : A -> B) : forall x n, map f (repeat x n) = repeat (f x) n.
Proof. induction n as [|n IH]; cbn; [reflexivity|]. rewrite IH. reflexivity. Qed.

Lemma st_exec_app : forall ck l1 l2 x,
  st_exec ck x (l1 ++ l2) = match st_exec ck x l1 with Some x' => st_exec ck x' l2 | None => None end.
Proof.
  intros ck. induction l1 as [|r l1 IH]; intros l2 x; cbn [app st_exec]; [reflexivity|].
  destruct (st_exec_one ck x r); [apply IH|reflexivity].
Qed.

Lemma st_exec_save : forall ck s g f, f = st_gframe g ->
  st_exec_one ck (s, g) (RSave f) =
    Some (st_with_cells s (updz (st_cells s) (Z.to_nat (f mod (st_maxpred s + 1))) (f, ck (sg_saves g) (sg_tl g))),
          st_gmk (sg_tl g) (updz (sg_cells g) (Z.to_nat (f mod (st_maxpred s + 1))) (f, sg_tl g))
                 (S (sg_saves g)) (sg_log g)).
Proof.
  intros ck s g f ->. cbn [st_exec_one]. rewrite Z.eqb_refl. unfold st_saved, st_gframe.
  assert ((Z.of_nat (length (sg_tl g)) =? NULL) = false) as -> by (unfold NULL; lia). reflexivity.
Qed.

Lemma st_exec_load : forall ck s g f,
  0 <= f < st_gframe g -> st_gframe g - f <= st_maxpred s ->
  nth (Z.to_nat (f mod (st_maxpred s + 1))) (sg_cells g) (NULL, []) = (f, firstn (Z.to_nat f) (sg_tl g)) ->
  st_exec_one ck (s, g) (RLoad f) =
    Some (s, st_gmk (firstn (Z.to_nat f) (sg_tl g)) (sg_cells g) (sg_saves g) (sg_log g)).
Proof.
  intros ck s g f Hf Hw Hcell. cbn [st_exec_one]. rewrite Hcell. cbn [fst snd].
  assert ((f <? 0) || negb (f <? st_gframe g) || (st_maxpred s <? st_gframe g - f) = false) as -> by lia.
  rewrite Z.eqb_refl, st_tl_eqb_refl. reflexivity.
Qed.

Lemma st_run_app : forall predict ck l1 l2 s g,
  st_run predict ck s g (l1 ++ l2) =
    match st_run predict ck s g l1 with
    | RunOk s' g' outs =>
      match st_run predict ck s' g' l2 with
      | RunOk s'' g'' outs2 => RunOk s'' g'' (outs ++ outs2)
      | RunStop outs2 why => RunStop (outs ++ outs2) why
      end
    | RunStop outs why => RunStop outs why
    end.
Proof.
  intros predict ck. induction l1 as [|vs l1 IH]; intros l2 s g; cbn [app st_run].
  - destruct (st_run predict ck s g l2); reflexivity.
  - destruct (st_call predict ck s g vs); try reflexivity.
    rewrite IH. destruct (st_run predict ck s0 g0 l1) as [s1 g1 o1|o1 why]; [|reflexivity].
    destruct (st_run predict ck s1 g1 l2); reflexivity.
Qed.

(* the supplied inputs as they sit in local_inputs *)
Fixpoint st_sup_list (h cur : Z) (vs : list Z) : list (Z * (Z * Z)) :=
  match vs with [] => [] | v :: r => (h, (cur, v)) :: st_sup_list (h + 1) cur r end.

Lemma st_sup_list_length : forall vs h cur, length (st_sup_list h cur vs) = length vs.
Proof. induction vs as [|v vs IH]; intros h cur; cbn; auto. Qed.

Lemma st_put_end : forall l h x, (forall e, In e l -> fst e < h) -> st_put l h x = l ++ [(h, x)].
Proof.
  induction l as [|[k' y] r IH]; intros h x H; cbn [st_put app]; [reflexivity|].
  pose proof (H (k', y) (or_introl eq_refl)) as Hk. cbn in Hk.
  assert ((h <? k') = false) as -> by lia. assert ((h =? k') = false) as -> by lia.
  f_equal. apply IH. intros e He. apply H. right. exact He.
Qed.

Lemma st_supply_ok : forall vs s h,
  (forall e, In e (st_locals s) -> fst e < h) -> h + Z.of_nat (length vs) <= st_np s ->
  st_supply s h vs = Ok (st_with_locals s (st_locals s ++ st_sup_list h (s_current (st_sync s)) vs)).
Proof.
  induction vs as [|v vs IH]; intros s h Hl Hn.
  - cbn [st_supply st_sup_list]. rewrite app_nil_r. destruct s; reflexivity.
  - cbn [st_supply st_sup_list]. unfold st_add_local_input.
    cbn [length] in Hn. assert ((st_np s <=? h) = false) as -> by lia. cbn [res_bind].
    rewrite st_put_end by exact Hl.
    rewrite IH.
    + cbn [st_with_locals st_locals st_sync]. rewrite <- app_assoc. reflexivity.
    + cbn [st_with_locals st_locals]. intros e He. apply in_app_or in He. destruct He as [He|[<-|[]]].
      * specialize (Hl e He). lia.
      * cbn. lia.
    + cbn [st_with_locals st_np]. lia.
Qed.

Lemma st_set_delays_ok : forall k n i y,
  s_queues y = repeat (with_delay q_new k) i ++ repeat q_new n ->
  st_set_delays y (st_zrange (Z.of_nat i) n) k = Ok (with_queues y (repeat (with_delay q_new k) (i + n))).
Proof.
  intro k. induction n as [|n IH]; intros i y Hq.
  - cbn [st_zrange st_set_delays]. rewrite Nat.add_0_r. cbn [repeat] in Hq. rewrite app_nil_r in Hq.
    rewrite <- Hq. destruct y; reflexivity.
  - cbn [st_zrange st_set_delays].
    rewrite set_queue_delay_eq by (rewrite Hq, app_length, !repeat_length; apply Nat.lt_add_pos_r, Nat.lt_0_succ).
    rewrite Hq, app_nth2, repeat_length, Nat.sub_diag by (rewrite repeat_length; apply Nat.le_refl).
    cbn [repeat nth].
    change (set_frame_delay q_new k) with (Ok (with_delay q_new k, @nil pinput)). cbn [res_bind].
    replace (Z.of_nat i + 1) with (Z.of_nat (S i)) by lia.
    rewrite IH.
    + rewrite Nat.add_succ_comm. reflexivity.
    + cbn [with_queues s_queues]. rewrite <- (repeat_length (with_delay q_new k) i) at 2.
      rewrite updz_app. cbn [repeat]. rewrite repeat_cons, <- app_assoc. reflexivity.
Qed.

Section Run.
Variable predict : Z -> Z.
Variable ck : nat -> st_timeline -> option Z.
Variables np w d k : Z.
Variable ins : list (list Z).
Hypothesis Hnp : 0 <= np.
Hypothesis Hd : 0 <= d < w.
Hypothesis Hk : 0 <= k.
Hypothesis Hcap : k + d + 2 <= QLEN.
Hypothesis Hins : Forall (fun vs => Z.of_nat (length vs) = np) ins.

Let npn : nat := Z.to_nat np.
(* the value player p submits at user frame j *)
Definition st_up (p : nat) (j : Z) : Z := nth p (nth (Z.to_nat j) ins []) 0.
Definition st_E (f : Z) : st_finputs := st_expected np ins k f.
Definition st_TL (n : nat) : st_timeline := map st_E (st_zrange 0 n).
Definition st_TLz (f : Z) : st_timeline := st_TL (Z.to_nat f).
Definition st_idx (f : Z) : nat := Z.to_nat (f mod (w + 1)).

Lemma st_dl_delayed : forall p f, st_dl k (st_up p) f = st_delayed ins k f p.
Proof. reflexivity. Qed.

Lemma st_TLz_length : forall f, Z.of_nat (length (st_TLz f)) = Z.max 0 f.
Proof using. intro f. unfold st_TLz, st_TL. rewrite map_length, zrange_length. clear. lia. Qed.

Lemma st_TLz_S : forall f, 0 <= f -> st_TLz (f + 1) = st_TLz f ++ [st_E f].
Proof.
  intros f Hf. unfold st_TLz, st_TL. rewrite Z2Nat.inj_add, Nat.add_1_r, zrange_S, map_app by lia.
  cbn [map]. rewrite Z.add_0_l, Z2Nat.id by exact Hf. reflexivity.
Qed.

Lemma st_TLz_firstn : forall f c, 0 <= f <= c -> firstn (Z.to_nat f) (st_TLz c) = st_TLz f.
Proof.
  intros f c H. unfold st_TLz, st_TL. rewrite firstn_map. f_equal.
  replace (Z.to_nat c) with (Z.to_nat f + (Z.to_nat c - Z.to_nat f))%nat by lia.
  rewrite zrange_app, firstn_app, zrange_length, Nat.sub_diag, firstn_all2 by (rewrite zrange_length; lia).
  apply app_nil_r.
Qed.

Lemma st_idx_lt : forall f, (st_idx f < Z.to_nat (w + 1))%nat.
Proof. intro f. apply st_slot_lt. lia. Qed.

Lemma st_idx_inj : forall f g, Z.abs (f - g) <= w -> st_idx f = st_idx g -> f = g.
Proof. intros f g H. apply st_slot_inj; lia. Qed.

Definition QIp (p : nat) (c : Z) (q : queue) : Prop := QI k d (st_up p) c q.
Definition QAp (p : nat) (c : Z) (q : queue) : Prop := QA k d (st_up p) c q.

(* P p is what the queue of player p satisfies: inside the call made at frame c that is QIp p c, after its
   submissions QAp p c *)
Record SYP (P : nat -> queue -> Prop) (cur : Z) (y : sync) : Prop := {
  sy_w : s_maxpred y = w;
  sy_cur : s_current y = cur;
  sy_nq : length (s_queues y) = npn;
  sy_q : forall p, (p < npn)%nat -> P p (nth p (s_queues y) q_new) }.
Arguments sy_w {P cur y}. Arguments sy_cur {P cur y}. Arguments sy_nq {P cur y}. Arguments sy_q {P cur y}.
Definition SY (c : Z) : Z -> sync -> Prop := SYP (fun p => QIp p c).
Definition SYA (c : Z) : Z -> sync -> Prop := SYP (fun p => QAp p c).

Definition st_status_ok (status : list cstat) : Prop :=
  length status = npn /\ Forall (fun x => cs_disc x = false) status.

(* the session state inside the call made at frame c, apart from local_inputs, history and cells;
   stated on the components, so that it does not see a change of the other fields *)
Record FBp (c n m dist : Z) (status : list cstat) (y : sync) : Prop := {
  fb_np : n = np;
  fb_w : m = w;
  fb_d : dist = d;
  fb_st : st_status_ok status;
  fb_sy : SY c c y }.
Arguments fb_np {c n m dist status y}. Arguments fb_w {c n m dist status y}. Arguments fb_d {c n m dist status y}.
Arguments fb_st {c n m dist status y}. Arguments fb_sy {c n m dist status y}.
Definition FB (c : Z) (s : st_state) : Prop :=
  FBp c (st_np s) (st_maxpred s) (st_dist s) (st_status s) (st_sync s).

Definition st_dflt : Z * option Z := (NULL, None).
Definition st_cellof (s : st_state) (f : Z) : Z * option Z :=
  nth (Z.to_nat (f mod (st_maxpred s + 1))) (st_cells s) st_dflt.

Definition WI {A} (dflt : Z * A) (lo hi : Z) (cells : list (Z * A)) (val : Z -> A) : Prop :=
  forall x, lo <= x < hi -> nth (st_idx x) cells dflt = (x, val x).
(* the oldest frame held at the start of the call made at frame c: one of the last w+1; with check
   distance 0 nothing is ever saved *)
Definition st_wlo (c : Z) : Z := if 0 <? d then Z.max 0 (c - w - 1) else c.

Lemma st_wlo_pos : forall c, 0 < d -> st_wlo c = Z.max 0 (c - w - 1).
Proof. intros c H. unfold st_wlo. rewrite (proj2 (Z.ltb_lt 0 d) H). reflexivity. Qed.

Record CI (c : Z) (cs : Z -> option Z) (s : st_state) : Prop := {
  ci_len : length (st_cells s) = Z.to_nat (w + 1);
  ci_lt : Forall (fun e => fst e < c) (st_cells s);
  ci_held : WI st_dflt (st_wlo c) c (st_cells s) cs }.

Record GI (c : Z) (g : st_game) : Prop := {
  gi_tl : sg_tl g = st_TLz c;
  gi_len : length (sg_cells g) = Z.to_nat (w + 1);
  gi_held : WI (NULL, []) (st_wlo c) c (sg_cells g) st_TLz;
  gi_log : Forall (fun e => snd e = st_E (fst e)) (sg_log g) }.

(* the checksum history above the retain bound c - d of the call made at frame c (the call reads no
   other part of it): the frames up to c-2 once checks have started, each with the checksum fr f it
   was first seen with *)
Definition st_olddom (c x : Z) : bool := (d + 1 <? c) && (x <=? c - 2).
Definition HI (c : Z) (fr : Z -> option Z) (h : list (Z * option Z)) : Prop :=
  forall x, c - d <= x -> st_hist_get h x = if st_olddom c x then Some (fr x) else None.
Definition st_fresh (c : Z) (cs fr : Z -> option Z) : Prop :=
  forall f, c - d <= f < c -> st_olddom c f = false -> fr f = cs f.

Lemma st_ins_nth_len : forall c, (Z.to_nat c < length ins)%nat -> length (nth (Z.to_nat c) ins []) = npn.
Proof.
  intros c Hc. rewrite Forall_forall in Hins.
  specialize (Hins (nth (Z.to_nat c) ins []) (nth_In _ _ Hc)). unfold npn. lia.
Qed.

Lemma st_supply_call : forall c s, (Z.to_nat c < length ins)%nat -> FB c s -> st_locals s = [] ->
  st_supply s 0 (nth (Z.to_nat c) ins []) =
    Ok (st_with_locals s (st_sup_list 0 c (nth (Z.to_nat c) ins []))).
Proof.
  intros c s Hlt F HL.
  rewrite st_supply_ok.
  - rewrite HL, (sy_cur (fb_sy F)). reflexivity.
  - rewrite HL. intros e [].
  - rewrite (fb_np F), st_ins_nth_len by assumption. unfold npn. lia.
Qed.

Definition st_held (s : st_state) (f : Z) : bool := fst (st_cellof s f) =? f.
Definition st_old (s : st_state) (x : Z) : bool := s_current (st_sync s) - st_dist s <=? x.
Definition st_test (s : st_state) (h : list (Z * option Z)) (f : Z) : bool :=
  st_held s f && match st_hist_get h f with Some v => negb (st_opt_eqb v (snd (st_cellof s f))) | None => false end.
Definition st_hist_add (s : st_state) (h : list (Z * option Z)) (f : Z) : list (Z * option Z) :=
  let h1 := filter (fun e => st_old s (fst e)) h in
  if st_held s f then match st_hist_get h f with Some _ => h1 | None => h1 ++ [(f, snd (st_cellof s f))] end
  else h1.

Lemma st_consistent_spec : forall s h f, 0 <= f -> st_old s f = true ->
  st_checksums_consistent s h f = Ok (st_hist_add s h f, negb (st_test s h f)).
Proof.
  intros s h f Hf Ho. unfold st_checksums_consistent, st_hist_add, st_test, st_held, st_cellof, st_dflt.
  assert ((f <? 0) = false) as -> by lia.
  destruct (Z.eqb_spec (fst (nth (Z.to_nat (f mod (st_maxpred s + 1))) (st_cells s) (NULL, None))) f) as [E|E];
    cbn [negb andb]; [|reflexivity].
  rewrite E, (st_get_filter (st_old s)), Ho.
  destruct (st_hist_get h f); [rewrite negb_involutive|]; reflexivity.
Qed.

Lemma st_hist_add_get : forall s h f x, st_old s x = true ->
  st_hist_get (st_hist_add s h f) x =
    match st_hist_get h x with
    | Some v => Some v
    | None => if (f =? x) && st_held s f then Some (snd (st_cellof s f)) else None
    end.
Proof.
  intros s h f x Hx. unfold st_hist_add.
  destruct (st_held s f); [destruct (st_hist_get h f) eqn:Ef|];
    rewrite ?st_get_app, (st_get_filter (st_old s)), Hx; destruct (st_hist_get h x) eqn:Ex; try reflexivity.
  - destruct (Z.eqb_spec f x) as [->|]; [congruence|reflexivity].
  - rewrite andb_true_r. reflexivity.
  - rewrite andb_false_r. reflexivity.
Qed.

Lemma st_check_go_spec : forall s fs h,
  (forall f, In f fs -> 0 <= f /\ st_old s f = true) -> NoDup fs ->
  exists h', st_check_go s h fs = Ok (h', filter (st_test s h) fs) /\
    forall x, st_old s x = true ->
      st_hist_get h' x =
        match st_hist_get h x with
        | Some v => Some v
        | None => if existsb (Z.eqb x) fs && st_held s x then Some (snd (st_cellof s x)) else None
        end.
Proof.
  intros s. induction fs as [|f r IH]; intros h Hfs Hnd.
  - exists h. split; [reflexivity|]. intros x _. destruct (st_hist_get h x); reflexivity.
  - destruct (Hfs f (or_introl eq_refl)) as [Hf0 Hfo]. inversion Hnd as [|? ? Hnin Hnd']; subst.
    destruct (IH (st_hist_add s h f)) as (h' & E & Hg); [intros; apply Hfs; right; assumption|exact Hnd'|].
    exists h'. cbn [st_check_go]. rewrite (st_consistent_spec s h f Hf0 Hfo). cbn [res_bind]. rewrite E.
    cbn [res_bind]. split.
    + (* the frames still to be compared are not f: their entries are as before *)
      replace (filter (st_test s (st_hist_add s h f)) r) with (filter (st_test s h) r).
      * cbn [filter]. destruct (st_test s h f); reflexivity.
      * apply filter_ext_in. intros f' Hf'. unfold st_test.
        rewrite (st_hist_add_get s h f f' (proj2 (Hfs f' (or_intror Hf')))).
        destruct (st_hist_get h f'); [reflexivity|].
        destruct (Z.eqb_spec f f') as [->|]; [contradiction|reflexivity].
    + intros x Hx. rewrite (Hg x Hx), (st_hist_add_get s h f x Hx).
      destruct (st_hist_get h x); [reflexivity|].
      cbn [existsb]. rewrite (Z.eqb_sym x f).
      destruct (Z.eqb_spec f x) as [->|]; cbn [andb orb]; [|reflexivity].
      destruct (st_held s x); [reflexivity|]. rewrite andb_false_r. reflexivity.
Qed.

Lemma st_check_call : forall c cs fr s,
  0 < d -> d < c -> st_maxpred s = w -> st_dist s = d -> s_current (st_sync s) = c ->
  CI c cs s -> HI c fr (st_history s) -> st_fresh c cs fr ->
  exists h', st_check_go s (st_history s) (st_zrange (c - d) (Z.to_nat (d + 1))) =
      Ok (h', filter (fun f => st_olddom c f && negb (st_opt_eqb (fr f) (cs f))) (st_zrange (c - d) (Z.to_nat (d + 1)))) /\
    HI (c + 1) fr h'.
Proof.
  intros c cs fr s Hd0 Hdc Hw Hdist Hcur C H Hnew.
  assert (Hold : forall x, c - d <= x -> st_old s x = true) by (intros x Hx; unfold st_old; rewrite Hcur, Hdist; lia).
  assert (Hcell : forall f, c - d <= f < c -> st_cellof s f = (f, cs f)).
  { intros f Hf. unfold st_cellof. rewrite Hw. apply (ci_held _ _ _ C). rewrite st_wlo_pos by exact Hd0. lia. }
  assert (Hheld : forall f, c - d <= f <= c -> st_held s f = (f <? c)).
  { intros f Hf. unfold st_held. destruct (Z.ltb_spec f c) as [Hlt|Hge].
    - rewrite Hcell by lia. apply Z.eqb_refl.
    - assert (f = c) by lia. subst f. unfold st_cellof. rewrite Hw. fold (st_idx c).
      pose proof (ci_lt _ _ _ C) as HL. rewrite Forall_forall in HL.
      assert (Hi : (st_idx c < length (st_cells s))%nat) by (rewrite (ci_len _ _ _ C); apply st_idx_lt).
      specialize (HL _ (nth_In _ st_dflt Hi)). lia. }
  destruct (st_check_go_spec s (st_zrange (c - d) (Z.to_nat (d + 1))) (st_history s)) as (h' & E & Hg).
  - intros f Hf. apply zrange_in in Hf. split; [lia|apply Hold; lia].
  - apply zrange_nodup.
  - exists h'. rewrite E. split.
    + f_equal. f_equal. apply filter_ext_in. intros f Hf. apply zrange_in in Hf.
      unfold st_test. rewrite Hheld, (H f) by lia.
      destruct (st_olddom c f) eqn:Eo; [|apply andb_false_r].
      assert (Hfc : f < c) by (unfold st_olddom in Eo; lia).
      rewrite Hcell, (proj2 (Z.ltb_lt f c) Hfc) by lia. reflexivity.
    + intros x Hx. rewrite Hg, (H x), existsb_zrange by (try apply Hold; lia).
      destruct (st_olddom c x) eqn:Eo.
      * assert (st_olddom (c + 1) x = true) as -> by (unfold st_olddom in *; lia). reflexivity.
      * destruct (Z.ltb_spec x c) as [Hxc|Hxc].
        -- assert (st_olddom (c + 1) x = true) as -> by (unfold st_olddom; lia).
           assert ((c - d <=? x) && (x <? c - d + Z.of_nat (Z.to_nat (d + 1))) = true) as -> by lia.
           rewrite Hheld, Hcell, (proj2 (Z.ltb_lt x c) Hxc), Hnew by (try exact Eo; lia). reflexivity.
        -- assert (st_olddom (c + 1) x = false) as -> by (unfold st_olddom; lia).
           destruct (Z.eq_dec x c) as [->|Hne].
           ++ rewrite Hheld, Z.ltb_irrefl, andb_false_r by lia. reflexivity.
           ++ assert ((x <? c - d + Z.of_nat (Z.to_nat (d + 1))) = false) as -> by lia.
              rewrite andb_false_r. reflexivity.
Qed.

Lemma SYP_ext : forall P cur cur' y y', SYP P cur y ->
  s_maxpred y' = s_maxpred y -> s_current y' = cur' -> s_queues y' = s_queues y -> SYP P cur' y'.
Proof. intros P cur cur' y y' [A B C D] H1 H2 H3. constructor; rewrite ?H1, ?H3; auto. Qed.

Lemma SYP_map : forall (P P' : nat -> queue -> Prop) cur y (f : queue -> queue),
  (forall p q, P p q -> P' p (f q)) -> SYP P cur y -> SYP P' cur (with_queues y (map f (s_queues y))).
Proof.
  intros P P' cur y f Hf [A B C D]. constructor; cbn [with_queues s_maxpred s_current s_queues]; auto.
  - rewrite map_length. exact C.
  - intros p Hp. rewrite (nth_map_lt f _ _ q_new q_new) by lia. apply Hf. apply D. exact Hp.
Qed.

Lemma st_sync_inputs_ok : forall P cur y status, SYP P cur y -> st_status_ok status ->
  (forall p q, P p q ->
     input predict q cur = Ok (set_last_requested q cur, (st_delayed ins k cur p, Confirmed))) ->
  synchronized_inputs predict y status =
    Ok (with_queues y (map (fun q => set_last_requested q cur) (s_queues y)), st_E cur).
Proof.
  intros P cur y status [_ Hc Hn Hq] [Hl Hdisc] H. unfold synchronized_inputs. rewrite Hc.
  rewrite (sync_inputs_go_confirmed predict cur (s_queues y) status (map (st_delayed ins k cur) (seq 0 npn))).
  - cbn [res_bind]. rewrite map_map. reflexivity.
  - lia.
  - rewrite map_length, seq_length. lia.
  - exact Hdisc.
  - intros p Hp. rewrite (nth_map_lt (st_delayed ins k cur) _ _ 0%nat 0) by (rewrite seq_length; lia).
    rewrite seq_nth by lia. apply H, Hq. lia.
Qed.

Lemma cell_frame_ext : forall y y' f, s_maxpred y' = s_maxpred y -> s_cells y' = s_cells y ->
  cell_frame y' f = cell_frame y f.
Proof. intros y y' f H1 H2. unfold cell_frame, cell_pos. rewrite H1, H2. reflexivity. Qed.

Fixpoint st_resim_reqs (n : nat) (first : bool) (f : Z) : list request :=
  match n with
  | O => []
  | S m => (if first then [] else [RSave f]) ++ RAdvance (st_E f) :: st_resim_reqs m false (f + 1)
  end.

Lemma st_resim_ok : forall n (first : bool) c y f status,
  0 < d -> SY c f y -> st_lo d c <= f -> f + Z.of_nat n <= c -> st_status_ok status ->
  (forall f', f + (if first then 1 else 0) <= f' -> f' < f + Z.of_nat n -> cell_frame y f' = f') ->
  exists y', st_resim predict n first y status = Ok (y', st_resim_reqs n first f) /\
    SY c (f + Z.of_nat n) y' /\ s_cells y' = s_cells y.
Proof.
  induction n as [|n IH]; intros first c y f status Hd0 Sy Hlo Hhi Hst Hcells.
  - exists y. cbn [st_resim st_resim_reqs]. rewrite Z.add_0_r. auto.
  - assert (Hf0 : 0 <= f) by (unfold st_lo in Hlo; lia).
    cbn [st_resim st_resim_reqs].
    rewrite (st_sync_inputs_ok _ f y status Sy Hst).
    2:{ intros p q Hq. rewrite <- st_dl_delayed. apply (QI_read k d (st_up p) predict c q f Hk Hd0 Hq). lia. }
    cbn [res_bind].
    set (y1 := with_queues y (map (fun q => set_last_requested q f) (s_queues y))).
    assert (S1 : SY c f y1) by (apply (SYP_map _ _ f y _ (fun p q => QI_req k d (st_up p) c q f) Sy)).
    (* the frames saved during the resimulation are held already: nothing but last_saved_frame moves *)
    assert (Hsv : (if first then Ok (y1, []) else res_bind (save_current_state y1) (fun '(y2, rq) => Ok (y2, [rq])))
                  = Ok (if first then y1 else sync_resaved y1, if first then [] else [RSave f])).
    { destruct first; [reflexivity|]. rewrite save_held_eq; rewrite (sy_cur S1); [reflexivity|exact Hf0|].
      apply (Hcells f); lia. }
    rewrite Hsv. cbn [res_bind].
    set (y2 := if first then y1 else sync_resaved y1).
    assert (S2 : SY c (f + 1) (advance_frame y2)).
    { apply (SYP_ext _ f (f + 1) y1 _ S1); subst y2; destruct first; try reflexivity;
        cbn [advance_frame with_current sync_resaved s_current]; rewrite (sy_cur S1); reflexivity. }
    destruct (IH false c (advance_frame y2) (f + 1) status Hd0 S2 ltac:(lia) ltac:(lia) Hst) as (y3 & E3 & S3 & C3).
    + intros f' H1 H2. rewrite (cell_frame_ext y (advance_frame y2)) by (subst y2; destruct first; reflexivity).
      apply Hcells; [destruct first|]; lia.
    + rewrite E3. cbn [res_bind]. exists y3. split; [reflexivity|]. split.
      * replace (f + Z.of_nat (S n)) with (f + 1 + Z.of_nat n) by lia. exact S3.
      * rewrite C3. subst y2. destruct first; reflexivity.
Qed.

Lemma st_adjust_ok : forall c y status,
  0 < d -> d < c -> SY c c y -> st_status_ok status ->
  (forall f', c - d <= f' < c -> cell_frame y f' = f') ->
  exists y', st_adjust_gamestate predict y status (c - d) =
      Ok (y', RLoad (c - d) :: st_resim_reqs (Z.to_nat d) true (c - d)) /\
    SY c c y' /\ s_cells y' = s_cells y.
Proof.
  intros c y status Hd0 Hdc S Hst Hcells.
  unfold st_adjust_gamestate.
  rewrite load_frame_eq by (rewrite ?(sy_cur S), ?(sy_w S); try apply Hcells; lia).
  cbn [res_bind].
  set (y2 := reset_all (with_current y (c - d))).
  assert (S2 : SY c (c - d) y2).
  { apply (SYP_map _ _ _ _ _ (fun p q => QI_reset k d (st_up p) c q)), (SYP_ext _ c (c - d) y); auto. }
  rewrite (sy_cur S2), Z.eqb_refl, (sy_cur S). cbn [negb].
  replace (c - (c - d)) with d by lia.
  destruct (st_resim_ok (Z.to_nat d) true c y2 (c - d) status Hd0 S2) as (y3 & E3 & S3 & C3); try lia; auto.
  - unfold st_lo. lia.
  - intros f' H1 H2. apply Hcells. lia.
  - rewrite E3. cbn [res_bind]. replace (c - d + Z.of_nat (Z.to_nat d)) with c in S3 by lia.
    rewrite (sy_cur S3), Z.eqb_refl. cbn [negb].
    exists y3. split; [reflexivity|]. split; [exact S3|exact C3].
Qed.

Lemma st_add_all_ok : forall vs h c y,
  0 <= c -> s_maxpred y = w -> s_current y = c -> length (s_queues y) = npn -> (h + length vs = npn)%nat ->
  (forall p, (h <= p < npn)%nat -> QIp p c (nth p (s_queues y) q_new)) ->
  (forall p, (p < h)%nat -> QAp p c (nth p (s_queues y) q_new)) ->
  (forall i, (i < length vs)%nat -> nth i vs 0 = st_up (h + i) c) ->
  exists y', st_add_all y (st_sup_list (Z.of_nat h) c vs) = Ok y' /\ SYA c c y' /\ s_cells y' = s_cells y.
Proof.
  induction vs as [|v vs IH]; intros h c y Hc Hw Hcur Hn Hh HI0 HA Hv.
  - exists y. cbn [st_sup_list st_add_all]. cbn [length] in Hh. repeat split; auto.
    intros p Hp. apply HA. lia.
  - cbn [st_sup_list st_add_all]. cbn [length] in Hh.
    rewrite add_local_input_eq by (rewrite ?Hcur, ?Hn; auto; lia).
    pose proof (Hv 0%nat ltac:(cbn; lia)) as Hv0. cbn [nth] in Hv0. rewrite Nat.add_0_r in Hv0. subst v.
    destruct (QI_add k d (st_up h) c _ Hk (proj1 Hd) Hcap Hc (HI0 h ltac:(lia))) as (q' & r & E & QA').
    rewrite E. cbn [res_bind].
    set (y1 := with_queues y (updz (s_queues y) h q')).
    replace (Z.of_nat h + 1) with (Z.of_nat (S h)) by lia.
    destruct (IH (S h) c y1 Hc) as (y' & E' & A1 & A2); subst y1; cbn [with_queues s_maxpred s_current s_queues s_cells]; auto.
    + rewrite updz_length. exact Hn.
    + lia.
    + intros p Hp. rewrite nth_updz_other by lia. apply HI0. lia.
    + intros p Hp. destruct (Nat.eq_dec p h) as [->|Hne].
      * rewrite nth_updz_same by lia. exact QA'.
      * rewrite nth_updz_other by lia. apply HA. lia.
    + intros i Hi. replace (S h + i)%nat with (h + S i)%nat by lia. rewrite <- (Hv (S i)) by (cbn; lia). reflexivity.
    + exists y'. auto.
Qed.

Definition st_tie (s : st_state) : Prop := s_cells (st_sync s) = map fst (st_cells s).

Definition st_bad (c : Z) (cs fr : Z -> option Z) : list Z :=
  if (0 <? d) && (d <? c)
  then filter (fun f => st_olddom c f && negb (st_opt_eqb (fr f) (cs f))) (st_zrange (c - d) (Z.to_nat (d + 1)))
  else [].

Definition st_roll_reqs (c : Z) : list request :=
  if (0 <? d) && (d <? c) then RLoad (c - d) :: st_resim_reqs (Z.to_nat d) true (c - d) else [].

Lemma st_rollback_ok : forall c cs fr s,
  0 <= c -> FB c s -> st_tie s -> CI c cs s -> HI c fr (st_history s) ->
  (0 < d -> d < c -> st_fresh c cs fr) ->
  exists s1 reqs1, st_rollback_phase predict s = Ok (s1, st_bad c cs fr, reqs1) /\
    HI (c + 1) fr (st_history s1) /\
    (st_bad c cs fr = [] -> reqs1 = st_roll_reqs c /\ FB c s1 /\ st_locals s1 = st_locals s /\
       st_cells s1 = st_cells s /\ s_cells (st_sync s1) = s_cells (st_sync s)).
Proof.
  intros c cs fr s Hc F T C H Hnew. unfold st_rollback_phase, st_bad, st_roll_reqs.
  destruct F as [Fn Fw Fd Fst Sy]. rewrite (sy_cur Sy), Fd.
  destruct ((0 <? d) && (d <? c)) eqn:Ec.
  - assert (Hd0 : 0 < d) by lia. assert (Hdc : d < c) by lia.
    destruct (st_check_call c cs fr s Hd0 Hdc Fw Fd (sy_cur Sy) C H (Hnew Hd0 Hdc)) as (h' & E & H').
    rewrite E. cbn [res_bind].
    destruct (filter _ _) as [|b bs].
    2:{ eexists; eexists. split; [reflexivity|]. split; [exact H'|discriminate]. }
    destruct (st_adjust_ok c (st_sync s) (st_status s) Hd0 Hdc Sy Fst) as (y' & E' & S' & C').
    { intros f Hf. unfold cell_frame, cell_pos. rewrite (sy_w Sy), T.
      rewrite (nth_map_lt fst _ _ st_dflt NULL) by (rewrite (ci_len _ _ _ C); apply st_idx_lt).
      fold (st_idx f). rewrite (ci_held _ _ _ C f); [reflexivity|]. rewrite st_wlo_pos by exact Hd0. lia. }
    cbn [st_with_history st_sync st_status]. rewrite E'. cbn [res_bind].
    eexists; eexists. split; [reflexivity|]. split; [exact H'|]. intros _.
    split; [reflexivity|]. split; [constructor; assumption|auto].
  - exists s, []. split; [reflexivity|]. split; [|intros _; split; [reflexivity|split; [constructor; assumption|auto]]].
    intros x Hx. rewrite (H x) by lia. unfold st_olddom.
    assert ((d + 1 <? c) && (x <=? c - 2) = false) as -> by lia.
    assert ((d + 1 <? c + 1) && (x <=? c + 1 - 2) = false) as -> by lia. reflexivity.
Qed.

Lemma st_confirm_ok : forall c y, 0 <= c -> SYA c c y ->
  let y5 := advance_frame (with_queues y (map (fun q => set_last_requested q c) (s_queues y))) in
  exists y', set_last_confirmed_frame y5 (s_current y5 - d) false = Ok y' /\
    SY (c + 1) (c + 1) y' /\ s_cells y' = s_cells y.
Proof.
  intros c y Hc S y5.
  rewrite set_last_confirmed_frame_eq; subst y5; cbn [advance_frame with_current with_queues s_queues s_current];
    rewrite ?(sy_cur S).
  - eexists. split; [reflexivity|]. split; [|reflexivity].
    apply (SYP_map _ (fun p => QIp p (c + 1)) c y _
             (fun p q => QA_finish k d (st_up p) c q Hk (proj1 Hd) Hc)) in S.
    apply (SYP_ext _ c (c + 1) _ _ S); cbn [with_queues s_queues]; [reflexivity..|].
    destruct (0 <? c + 1 - d); rewrite ?map_map, ?Z.add_simpl_r; [|reflexivity].
    apply map_ext. intro q. f_equal. lia.
  - apply max_first_incorrect_null, Forall_forall. intros q Hq.
    apply in_map_iff in Hq. destruct Hq as (q0 & <- & Hq0). destruct (In_nth _ _ q_new Hq0) as (p & Hp & <-).
    rewrite (sy_nq S) in Hp. exact (QA_fi k d (st_up p) c _ (sy_q S p Hp)).
  - lia.
Qed.

Lemma st_advance_tail : forall c s s1 reqs1,
  0 <= c -> (Z.to_nat c < length ins)%nat ->
  st_rollback_phase predict s = Ok (s1, [], reqs1) ->
  s_current (st_sync s) = c ->
  FB c s1 -> st_locals s1 = st_sup_list 0 c (nth (Z.to_nat c) ins []) ->
  exists s', st_advance_frame predict s =
      Ok (s', StRequests (reqs1 ++ (if 0 <? d then [RSave c] else []) ++ [RAdvance (st_E c)])) /\
    FB (c + 1) s' /\ st_locals s' = [] /\ st_cells s' = st_cells s1 /\ st_history s' = st_history s1 /\
    s_cells (st_sync s') = (if 0 <? d then updz (s_cells (st_sync s1)) (st_idx c) c else s_cells (st_sync s1)).
Proof.
  intros c s s1 reqs1 Hc Hlt Hroll Hcur [Fn Fw Fd [Fl Fdisc] Sy] HL.
  unfold st_advance_frame. rewrite Hroll. cbn [res_bind]. cbv beta iota.
  rewrite Fn, HL, st_sup_list_length, (st_ins_nth_len c Hlt).
  assert ((np =? Z.of_nat npn) = true) as -> by (unfold npn; lia). cbn [negb].
  destruct (st_add_all_ok (nth (Z.to_nat c) ins []) 0%nat c (st_sync s1) Hc (sy_w Sy) (sy_cur Sy) (sy_nq Sy))
    as (y2 & E2 & S2 & C2).
  - rewrite (st_ins_nth_len c Hlt). reflexivity.
  - intros p Hp. apply (sy_q Sy). lia.
  - intros p Hp. lia.
  - intros i Hi. reflexivity.
  - change (Z.of_nat 0) with 0 in E2. rewrite E2, Fd. cbn [res_bind].
    rewrite save_current_state_eq by (rewrite (sy_cur S2); exact Hc).
    unfold cell_pos. rewrite (sy_w S2), (sy_cur S2), C2. fold (st_idx c). cbn [res_bind].
    set (y3 := if 0 <? d then mks w (updz (s_cells (st_sync s1)) (st_idx c) c) (s_last_confirmed y2) c c (s_queues y2) else y2).
    replace (if 0 <? d then Ok (_, [RSave c]) else Ok (y2, [])) with (Ok (y3, if 0 <? d then [RSave c] else []))
      by (subst y3; destruct (0 <? d); reflexivity).
    assert (S3 : SYA c c y3).
    { apply (SYP_ext _ c c y2 _ S2); subst y3; destruct (0 <? d); auto using (sy_w S2), (sy_cur S2). }
    cbn [res_bind].
    rewrite (st_sync_inputs_ok _ c y3 (st_status s1) S3 (conj Fl Fdisc))
      by (intros p q Hq; rewrite <- st_dl_delayed; apply (QA_input k d (st_up p) predict c q Hk (proj1 Hd) Hc Hq)).
    cbn [res_bind].
    destruct (st_confirm_ok c y3 Hc S3) as (y6 & E6 & S6 & C6). cbv zeta in E6. rewrite E6. cbn [res_bind].
    eexists. split; [reflexivity|]. unfold FB.
    cbn [st_with_status st_with_locals st_with_sync st_np st_maxpred st_dist st_sync st_status st_history st_locals st_cells].
    split; [|repeat split; rewrite C6; subst y3; destruct (0 <? d); auto].
    constructor; auto. split; [rewrite map_length; exact Fl|].
    apply Forall_forall. intros x Hx. apply in_map_iff in Hx. destruct Hx as (x0 & <- & Hx0).
    rewrite Forall_forall in Fdisc. exact (Fdisc x0 Hx0).
Qed.

Lemma WI_upd {A} : forall (dflt : Z * A) lo hi cells val f v,
  WI dflt lo hi cells val -> lo <= f <= hi -> Z.max hi (f + 1) - lo <= w + 1 ->
  length cells = Z.to_nat (w + 1) ->
  WI dflt lo (Z.max hi (f + 1)) (updz cells (st_idx f) (f, v)) (fun x => if x =? f then v else val x).
Proof.
  intros dflt lo hi cells val f v H Hf Hwin Hlen x Hx.
  destruct (Z.eqb_spec x f) as [->|Hne].
  - apply nth_updz_same. rewrite Hlen. apply st_idx_lt.
  - rewrite nth_updz_other; [apply H; lia|].
    intro E. apply Hne. symmetry. apply (st_idx_inj f x); [lia|exact E].
Qed.

Lemma WI_weaken {A} : forall (dflt : Z * A) lo hi lo' hi' cells val val',
  WI dflt lo hi cells val -> (forall x, lo' <= x < hi' -> lo <= x < hi /\ val' x = val x) ->
  WI dflt lo' hi' cells val'.
Proof. intros dflt lo hi lo' hi' cells val val' H He x Hx. destruct (He x Hx) as [Hx' ->]. apply H. exact Hx'. Qed.

(* the save with index i puts val i x into the cell of its frame x; the saves of frames f, f+1, .., f+n-1 have
   indices n0, n0+1, .. *)
Fixpoint st_saved_cells {A} (val : nat -> Z -> A) (n : nat) (f : Z) (n0 : nat) (cells : list (Z * A)) : list (Z * A) :=
  match n with
  | O => cells
  | S m => st_saved_cells val m (f + 1) (S n0) (updz cells (st_idx f) (f, val n0 f))
  end.
Definition st_saved_val {A} (val : nat -> Z -> A) (n : nat) (f : Z) (n0 : nat) (vs : Z -> A) (x : Z) : A :=
  if (f <=? x) && (x <? f + Z.of_nat n) then val (n0 + Z.to_nat (x - f))%nat x else vs x.

Lemma st_saved_cells_app {A} (val : nat -> Z -> A) : forall n m f n0 cells,
  st_saved_cells val (n + m) f n0 cells =
    st_saved_cells val m (f + Z.of_nat n) (n0 + n) (st_saved_cells val n f n0 cells).
Proof.
  induction n as [|n IH]; intros m f n0 cells.
  - cbn [plus st_saved_cells]. rewrite Z.add_0_r, Nat.add_0_r. reflexivity.
  - cbn [plus st_saved_cells]. rewrite IH. f_equal; lia.
Qed.

Lemma st_saved_cells_length {A} (val : nat -> Z -> A) : forall n f n0 cells,
  length (st_saved_cells val n f n0 cells) = length cells.
Proof. induction n as [|n IH]; intros; cbn [st_saved_cells]; [reflexivity|]. rewrite IH. apply updz_length. Qed.

Lemma st_saved_cells_WI {A} (val : nat -> Z -> A) : forall n f n0 cells (dflt : Z * A) vs lo hi,
  WI dflt lo hi cells vs -> lo <= f <= hi -> Z.max hi (f + Z.of_nat n) - lo <= w + 1 ->
  length cells = Z.to_nat (w + 1) ->
  WI dflt lo (Z.max hi (f + Z.of_nat n)) (st_saved_cells val n f n0 cells) (st_saved_val val n f n0 vs).
Proof.
  induction n as [|n IH]; intros f n0 cells dflt vs lo hi H Hf Hwin Hlen; cbn [st_saved_cells].
  - apply (WI_weaken dflt lo hi _ _ _ vs _ H). intros x Hx. split; [lia|]. unfold st_saved_val.
    assert ((f <=? x) && (x <? f + Z.of_nat 0) = false) as -> by lia. reflexivity.
  - pose proof (WI_upd dflt lo hi cells vs f (val n0 f) H Hf ltac:(lia) Hlen) as H1.
    apply (IH (f + 1) (S n0)) in H1; [|lia|lia|rewrite updz_length; exact Hlen].
    apply (WI_weaken _ _ _ _ _ _ _ _ H1). intros x Hx. split; [lia|]. unfold st_saved_val.
    destruct (Z.eqb_spec x f) as [->|Hne].
    + assert ((f + 1 <=? f) && (f <? f + 1 + Z.of_nat n) = false) as -> by lia.
      assert ((f <=? f) && (f <? f + Z.of_nat (S n)) = true) as -> by lia.
      rewrite Z.sub_diag, Nat.add_0_r. reflexivity.
    + destruct ((f <=? x) && (x <? f + Z.of_nat (S n))) eqn:E1.
      * assert ((f + 1 <=? x) && (x <? f + 1 + Z.of_nat n) = true) as -> by lia. f_equal. lia.
      * assert ((f + 1 <=? x) && (x <? f + 1 + Z.of_nat n) = false) as -> by lia. reflexivity.
Qed.

Lemma st_saved_cells_lt {A} (val : nat -> Z -> A) : forall n f n0 cells B,
  Forall (fun e => fst e < B) cells -> f + Z.of_nat n <= B ->
  Forall (fun e => fst e < B) (st_saved_cells val n f n0 cells).
Proof.
  induction n as [|n IH]; intros f n0 cells B H HB; cbn [st_saved_cells]; [exact H|].
  apply IH; [|lia]. apply Forall_updz; [exact H|]. cbn. lia.
Qed.

Lemma st_saved_cells_fst_held {A} (val : nat -> Z -> A) : forall n f n0 cells (dflt : Z * A) vs lo hi,
  WI dflt lo hi cells vs -> lo <= f -> f + Z.of_nat n <= hi -> hi - lo <= w + 1 ->
  length cells = Z.to_nat (w + 1) ->
  map fst (st_saved_cells val n f n0 cells) = map fst cells.
Proof.
  induction n as [|n IH]; intros f n0 cells dflt vs lo hi H Hlo Hhi Hwin Hlen; cbn [st_saved_cells]; [reflexivity|].
  pose proof (WI_upd dflt lo hi cells vs f (val n0 f) H ltac:(lia) ltac:(lia) Hlen) as H1.
  rewrite Z.max_l in H1 by lia.
  rewrite (IH (f + 1) (S n0) _ _ _ lo hi H1) by (rewrite ?updz_length; lia).
  rewrite map_updz. cbn [fst].
  replace f with (nth (st_idx f) (map fst cells) (fst dflt)) at 2; [apply updz_nth_self|].
  rewrite map_nth, (H f) by lia. reflexivity.
Qed.

Definition st_ckf (i : nat) (x : Z) : option Z := ck i (st_TLz x).

Fixpoint sg_cells_after (n : nat) (f : Z) (cells : list (Z * st_timeline)) : list (Z * st_timeline) :=
  match n with
  | O => cells
  | S m => sg_cells_after m (f + 1) (updz cells (st_idx f) (f, st_TLz f))
  end.

Lemma sg_cells_after_saved : forall n f n0 cells,
  sg_cells_after n f cells = st_saved_cells (fun _ x => st_TLz x) n f n0 cells.
Proof. induction n as [|n IH]; intros; cbn [sg_cells_after st_saved_cells]; [reflexivity|apply IH]. Qed.

Lemma sg_cells_after_app : forall n m f cells,
  sg_cells_after (n + m) f cells = sg_cells_after m (f + Z.of_nat n) (sg_cells_after n f cells).
Proof.
  induction n as [|n IH]; intros m f cells.
  - cbn [plus sg_cells_after]. rewrite Z.add_0_r. reflexivity.
  - cbn [plus sg_cells_after]. rewrite IH. f_equal; lia.
Qed.

Lemma st_gframe_TL : forall g f, 0 <= f -> sg_tl g = st_TLz f -> st_gframe g = f.
Proof. intros g f Hf H. unfold st_gframe. rewrite H, st_TLz_length. lia. Qed.

Lemma st_exec_pairs : forall n f s g, 0 <= f -> st_maxpred s = w -> sg_tl g = st_TLz f ->
  st_exec ck (s, g) (st_resim_reqs n false f) =
    Some (st_with_cells s (st_saved_cells st_ckf n f (sg_saves g) (st_cells s)),
          st_gmk (st_TLz (f + Z.of_nat n)) (sg_cells_after n f (sg_cells g)) (sg_saves g + n)
                 (sg_log g ++ map (fun x => (x, st_E x)) (st_zrange f n))).
Proof.
  induction n as [|n IH]; intros f s g Hf Hw Htl.
  - cbn [st_resim_reqs st_exec st_saved_cells sg_cells_after st_zrange map].
    rewrite Z.add_0_r, Nat.add_0_r, app_nil_r, <- Htl. destruct s, g; reflexivity.
  - cbn [st_resim_reqs app st_exec].
    rewrite st_exec_save by (symmetry; apply st_gframe_TL; assumption).
    cbn [st_exec_one]. unfold st_gframe. cbn [sg_tl sg_cells sg_saves sg_log].
    rewrite Hw, Htl, st_TLz_length, Z.max_r, <- st_TLz_S by exact Hf.
    rewrite IH by (auto; lia).
    cbn [st_with_cells st_cells sg_cells sg_saves sg_log st_saved_cells sg_cells_after st_zrange map].
    rewrite <- app_assoc, Nat.add_succ_comm, Nat2Z.inj_succ, <- Z.add_succ_comm. reflexivity.
Qed.

Lemma st_resim_reqs_app : forall n m f,
  st_resim_reqs (n + m) false f = st_resim_reqs n false f ++ st_resim_reqs m false (f + Z.of_nat n).
Proof.
  induction n as [|n IH]; intros m f.
  - cbn [plus st_resim_reqs app]. rewrite Z.add_0_r. reflexivity.
  - cbn [plus st_resim_reqs app]. rewrite IH, Nat2Z.inj_succ, <- Z.add_succ_comm. reflexivity.
Qed.

(* first frame saved and number of saves executed by the call made at frame c *)
Definition st_f0 (c : Z) : Z := if (0 <? d) && (d <? c) then c - d + 1 else c.
Definition st_nsv (c : Z) : nat := if 0 <? d then (if d <? c then Z.to_nat d else 1%nat) else 0%nat.
Definition st_call_log (c : Z) : list (Z * st_finputs) :=
  (if (0 <? d) && (d <? c) then [(c - d, st_E (c - d))] else []) ++
  (if 0 <? d then map (fun x => (x, st_E x)) (st_zrange (st_f0 c) (st_nsv c)) else [(c, st_E c)]).
Definition st_call_reqs (c : Z) : list request :=
  st_roll_reqs c ++ (if 0 <? d then [RSave c] else []) ++ [RAdvance (st_E c)].

Lemma st_resim_reqs_flat : forall n f,
  st_resim_reqs n false f = flat_map (fun x => [RSave x; RAdvance (st_E x)]) (st_zrange f n).
Proof. induction n as [|n IH]; intro f; cbn [st_resim_reqs st_zrange flat_map app]; [reflexivity|]. rewrite IH. reflexivity. Qed.

Lemma st_call_reqs_expected : forall c, st_call_reqs c = st_expected_requests np d k ins c.
Proof.
  intro c. unfold st_call_reqs, st_roll_reqs, st_expected_requests.
  destruct ((0 <? d) && (d <? c)) eqn:E; [|reflexivity].
  replace (Z.to_nat d) with (S (Z.to_nat (d - 1))) by lia.
  cbn [st_resim_reqs app]. rewrite st_resim_reqs_flat. reflexivity.
Qed.

Lemma st_f0_nsv : forall c, 0 <= c -> 0 < d ->
  st_f0 c + Z.of_nat (st_nsv c) = c + 1 /\ Z.max 0 (c - w) <= st_f0 c <= c /\ (1 <= st_nsv c)%nat.
Proof.
  intros c Hc Hd0. unfold st_f0, st_nsv. assert ((0 <? d) = true) as -> by lia. cbn [andb].
  destruct (Z.ltb_spec d c); lia.
Qed.

Lemma st_exec_requests : forall c s g,
  0 <= c -> st_maxpred s = w -> GI c g ->
  st_exec ck (s, g) (st_call_reqs c) =
    Some (st_with_cells s (st_saved_cells st_ckf (st_nsv c) (st_f0 c) (sg_saves g) (st_cells s)),
          st_gmk (st_TLz (c + 1)) (sg_cells_after (st_nsv c) (st_f0 c) (sg_cells g)) (sg_saves g + st_nsv c)
                 (sg_log g ++ st_call_log c)).
Proof.
  intros c s g Hc Hw G. unfold st_call_reqs, st_roll_reqs, st_call_log, st_f0, st_nsv.
  pose proof (gi_tl _ _ G) as Htl. pose proof (st_gframe_TL g c Hc Htl) as Hgf.
  destruct (Z.ltb_spec 0 d) as [Hd0|Hd0]; cbn [andb].
  - destruct (Z.ltb_spec d c) as [Hdc|Hdc].
    + (* load, first resimulated step, then save/advance pairs up to frame c *)
      assert (Hcell : nth (Z.to_nat ((c - d) mod (st_maxpred s + 1))) (sg_cells g) (NULL, [])
                      = (c - d, firstn (Z.to_nat (c - d)) (sg_tl g))).
      { rewrite Hw, Htl, st_TLz_firstn by lia. apply (gi_held _ _ G). rewrite st_wlo_pos by exact Hd0. lia. }
      replace (Z.to_nat d) with (S (Z.to_nat (d - 1))) at 1 by lia.
      cbn [st_resim_reqs app st_exec].
      rewrite st_exec_load by (try exact Hcell; rewrite ?Hgf, ?Hw; lia).
      cbn [st_exec_one]. unfold st_gframe. cbn [sg_tl sg_cells sg_saves sg_log].
      rewrite Htl, st_TLz_firstn, st_TLz_length, Z.max_r, <- st_TLz_S by lia.
      change [RSave c; RAdvance (st_E c)] with (st_resim_reqs 1 false c).
      replace c with (c - d + 1 + Z.of_nat (Z.to_nat (d - 1))) at 5 by lia.
      rewrite <- st_resim_reqs_app, st_exec_pairs by (auto; lia).
      cbn [sg_cells sg_saves sg_log].
      replace (Z.to_nat (d - 1) + 1)%nat with (Z.to_nat d) by lia.
      replace (c - d + 1 + Z.of_nat (Z.to_nat d)) with (c + 1) by lia.
      rewrite <- app_assoc. reflexivity.
    + cbn [app]. change [RSave c; RAdvance (st_E c)] with (st_resim_reqs 1 false c).
      rewrite st_exec_pairs by (auto; lia). reflexivity.
  - cbn [app st_exec st_exec_one st_saved_cells sg_cells_after].
    rewrite Hgf, Htl, <- st_TLz_S, Nat.add_0_r by exact Hc. destruct s; reflexivity.
Qed.

Lemma st_saves_end : forall c, st_f0 c + Z.of_nat (st_nsv c) <= c + 1.
Proof. intro c. unfold st_f0, st_nsv. destruct (Z.ltb_spec 0 d); destruct (Z.ltb_spec d c); cbn [andb]; lia. Qed.

(* s is the state advance_frame returned: its sync layer has saved frame c, its visible cells are still
   those of the start of the call; n0 saves were executed before those of this call *)
Lemma st_post_session : forall c cs s n0,
  0 <= c -> CI c cs s ->
  s_cells (st_sync s) = (if 0 <? d then updz (map fst (st_cells s)) (st_idx c) c else map fst (st_cells s)) ->
  st_tie (st_with_cells s (st_saved_cells st_ckf (st_nsv c) (st_f0 c) n0 (st_cells s))) /\
  CI (c + 1) (st_saved_val st_ckf (st_nsv c) (st_f0 c) n0 cs)
     (st_with_cells s (st_saved_cells st_ckf (st_nsv c) (st_f0 c) n0 (st_cells s))).
Proof.
  intros c cs s n0 Hc [Hlen Hlt W] Hyc. unfold st_tie. cbn [st_with_cells st_sync st_cells]. rewrite Hyc.
  assert (Hheld : (if 0 <? d then updz (map fst (st_cells s)) (st_idx c) c else map fst (st_cells s))
                  = map fst (st_saved_cells st_ckf (st_nsv c) (st_f0 c) n0 (st_cells s)) /\
            WI st_dflt (st_wlo (c + 1)) (c + 1) (st_saved_cells st_ckf (st_nsv c) (st_f0 c) n0 (st_cells s))
               (st_saved_val st_ckf (st_nsv c) (st_f0 c) n0 cs)).
  { unfold st_wlo in *. destruct (Z.ltb_spec 0 d) as [Hd0|Hd0].
    - destruct (st_f0_nsv c Hc Hd0) as (Hs & Hf0 & Hn1).
      (* frame c - w - 1 leaves the window: its cell is the one of frame c *)
      apply (WI_weaken _ _ _ (Z.max 0 (c - w)) c _ _ cs) in W; [|intros; split; [lia|reflexivity]].
      split.
      + (* the saves before the last one are of held frames, the last one is of frame c *)
        replace (st_nsv c) with ((st_nsv c - 1) + 1)%nat by lia.
        rewrite st_saved_cells_app. cbn [st_saved_cells].
        rewrite map_updz. cbn [fst].
        replace (st_f0 c + Z.of_nat (st_nsv c - 1)) with c by lia.
        rewrite (st_saved_cells_fst_held st_ckf _ _ _ _ _ _ _ _ W) by lia.
        reflexivity.
      + apply (st_saved_cells_WI st_ckf (st_nsv c) (st_f0 c) n0) in W; [|lia|lia|exact Hlen].
        apply (WI_weaken _ _ _ _ _ _ _ _ W). intros; split; [lia|reflexivity].
    - unfold st_nsv. assert ((0 <? d) = false) as -> by lia. cbn [st_saved_cells].
      split; [reflexivity|intros x Hx; lia]. }
  destruct Hheld as [T' W']. split; [exact T'|]. constructor; cbn [st_with_cells st_cells].
  - rewrite st_saved_cells_length. exact Hlen.
  - apply st_saved_cells_lt; [|apply st_saves_end]. eapply Forall_impl; [|exact Hlt]. cbn. intros; lia.
  - exact W'.
Qed.

Lemma st_post_game : forall c g, 0 <= c -> GI c g ->
  GI (c + 1) (st_gmk (st_TLz (c + 1)) (sg_cells_after (st_nsv c) (st_f0 c) (sg_cells g)) (sg_saves g + st_nsv c)
                     (sg_log g ++ st_call_log c)).
Proof.
  intros c g Hc [Htl Hglen Wg Hlog]. constructor; cbn [sg_tl sg_cells sg_log].
  - reflexivity.
  - rewrite (sg_cells_after_saved _ _ 0%nat), st_saved_cells_length. exact Hglen.
  - rewrite (sg_cells_after_saved _ _ 0%nat). unfold st_wlo in *. destruct (Z.ltb_spec 0 d) as [Hd0|Hd0].
    + destruct (st_f0_nsv c Hc Hd0) as (Hs & Hf0 & Hn1).
      apply (WI_weaken _ _ _ (Z.max 0 (c - w)) c _ _ st_TLz) in Wg; [|intros; split; [lia|reflexivity]].
      apply (st_saved_cells_WI (fun _ x => st_TLz x) (st_nsv c) (st_f0 c) 0%nat) in Wg; [|lia|lia|exact Hglen].
      apply (WI_weaken _ _ _ _ _ _ _ _ Wg). intros x Hx. split; [lia|].
      unfold st_saved_val. destruct (_ && _); reflexivity.
    + intros x Hx. lia.
  - apply Forall_app. split; [exact Hlog|]. unfold st_call_log. apply Forall_app. split.
    + destruct ((0 <? d) && (d <? c)); repeat constructor.
    + destruct (0 <? d); [|repeat constructor].
      apply Forall_forall. intros e He. apply in_map_iff in He. destruct He as (x & <- & _). reflexivity.
Qed.

(* cs f is the checksum in the cell of frame f, fr f the one first recorded for f in the history *)
Record ST (c : Z) (cs fr : Z -> option Z) (s : st_state) (g : st_game) : Prop := {
  st_fb : FB c s;
  st_nolocals : st_locals s = [];
  st_tied : st_tie s;
  st_ci : CI c cs s;
  st_gi : GI c g;
  st_hi : HI c fr (st_history s) }.

Lemma st_call_step : forall c cs fr s g,
  0 <= c -> (Z.to_nat c < length ins)%nat -> ST c cs fr s g ->
  (0 < d -> d < c -> st_fresh c cs fr) ->
  (st_bad c cs fr <> [] ->
     exists s', st_call predict ck s g (nth (Z.to_nat c) ins []) = CallMismatch s' c (st_bad c cs fr)) /\
  (st_bad c cs fr = [] ->
     exists s' g', st_call predict ck s g (nth (Z.to_nat c) ins []) = CallOk s' g' (st_expected_requests np d k ins c) /\
       ST (c + 1) (st_saved_val st_ckf (st_nsv c) (st_f0 c) (sg_saves g) cs) fr s' g' /\
       sg_saves g' = (sg_saves g + st_nsv c)%nat).
Proof.
  intros c cs fr s g Hc Hlt [F HL T C G H] Hnew.
  set (vs := nth (Z.to_nat c) ins []).
  set (s0 := st_with_locals s (st_sup_list 0 c vs)).
  assert (Hsup : st_supply s 0 vs = Ok s0) by (apply st_supply_call; assumption).
  destruct (st_rollback_ok c cs fr s0 Hc F T (Build_CI c cs s0 (ci_len _ _ _ C) (ci_lt _ _ _ C) (ci_held _ _ _ C)) H Hnew)
    as (s1 & reqs1 & Er & H1 & Hgood).
  pose proof (sy_cur (fb_sy F)) as Hcur.
  unfold st_call. rewrite Hsup. unfold st_advance_frame at 1. split.
  - intro Hne. exists s1. rewrite Er. cbn [res_bind]. cbv beta iota.
    destruct (st_bad c cs fr) as [|b bs]; [congruence|]. subst s0. cbn [st_sync st_with_locals]. rewrite Hcur. reflexivity.
  - intro He. rewrite He in Er. destruct (Hgood He) as (-> & F1 & L1 & Cl1 & Yc1).
    destruct (st_advance_tail c s0 s1 (st_roll_reqs c) Hc Hlt Er Hcur F1 L1) as (s' & Ea & F' & L' & Cl' & Hh' & Yc').
    fold (st_advance_frame predict s0). rewrite Ea. fold (st_call_reqs c).
    rewrite (st_exec_requests c s' g Hc (fb_w F') G).
    assert (Hcs : st_cells s' = st_cells s) by (rewrite Cl', Cl1; reflexivity).
    destruct (st_post_session c cs s' (sg_saves g) Hc) as (P2 & P3).
    { destruct C as [C1 C2 C3]. constructor; rewrite Hcs; assumption. }
    { rewrite Yc', Yc1, Hcs. exact (f_equal (fun l => if 0 <? d then updz l (st_idx c) c else l) T). }
    pose proof (st_post_game c g Hc G) as P4.
    unfold st_gframe. cbn [sg_tl st_with_cells st_sync].
    rewrite (gi_tl _ _ G), !st_TLz_length, (sy_cur (fb_sy F')).
    assert ((Z.max 0 (c + 1) =? Z.max 0 c + 1) && (Z.max 0 (c + 1) =? c + 1) = true) as -> by lia.
    rewrite st_call_reqs_expected.
    eexists; eexists. split; [reflexivity|]. split; [|reflexivity].
    constructor; auto. cbn [st_with_cells st_history]. rewrite Hh'. exact H1.
Qed.

Definition st_s0 : st_state :=
  st_mk np w d (mks w (repeat NULL (Z.to_nat (w + 1))) NULL NULL 0 (repeat (with_delay q_new k) npn))
        (repeat cs_default npn) [] [] (repeat (NULL, None) (Z.to_nat (w + 1))).

Lemma st_new_ok : st_new np w d k = Ok st_s0.
Proof.
  unfold st_new. change (st_zrange 0 (Z.to_nat np)) with (st_zrange (Z.of_nat 0) npn).
  rewrite (st_set_delays_ok k npn 0 (sync_new np w) eq_refl). reflexivity.
Qed.

Lemma st_s0_inv : forall cs fr, ST 0 cs fr st_s0 (st_game0 w).
Proof.
  intros cs fr.
  assert (W0 : forall A (dflt : Z * A) cells val, WI dflt (st_wlo 0) 0 cells val).
  { intros A dflt cells val x Hx. unfold st_wlo in Hx. destruct (0 <? d); lia. }
  constructor.
  - constructor; auto.
    + split; [apply repeat_length|]. apply Forall_forall. intros x Hx. apply repeat_spec in Hx. subst. reflexivity.
    + constructor; cbn [st_s0 st_sync s_maxpred s_current s_queues]; auto.
      * apply repeat_length.
      * intros p Hp. rewrite (nth_indep _ q_new (with_delay q_new k)), nth_repeat by (rewrite repeat_length; exact Hp).
        apply QI_new. lia.
  - reflexivity.
  - unfold st_tie. cbn [st_s0 st_sync st_cells s_cells]. rewrite st_map_repeat. reflexivity.
  - constructor; cbn [st_s0 st_cells]; [apply repeat_length| |apply W0].
    apply Forall_forall. intros x Hx. apply repeat_spec in Hx. subst. reflexivity.
  - constructor; cbn [st_game0 sg_tl sg_cells sg_log]; [reflexivity|apply repeat_length|apply W0|constructor].
  - intros x _. unfold st_olddom. assert ((d + 1 <? 0) = false) as -> by lia. reflexivity.
Qed.

(* the saves executed before the n-th call, and the checksum in the cell of frame f at that time *)
Fixpoint st_nsaves (n : nat) : nat :=
  match n with O => O | S m => (st_nsaves m + st_nsv (Z.of_nat m))%nat end.
Fixpoint st_cs (n : nat) : Z -> option Z :=
  match n with
  | O => st_ckf 0
  | S m => st_saved_val st_ckf (st_nsv (Z.of_nat m)) (st_f0 (Z.of_nat m)) (st_nsaves m) (st_cs m)
  end.
(* the checksum a frame enters the history with: the one in its cell at the first call that has it
   in its range, max (f+1) (d+1) *)
Definition st_fr (f : Z) : option Z := st_cs (Z.to_nat (Z.max (f + 1) (d + 1))) f.
Definition st_badn (n : nat) : list Z := st_bad (Z.of_nat n) (st_cs n) st_fr.

Definition STn (n : nat) (s : st_state) (g : st_game) : Prop :=
  ST (Z.of_nat n) (st_cs n) st_fr s g /\ sg_saves g = st_nsaves n.

Lemma st_call_step_n : forall n s g, (n < length ins)%nat -> STn n s g ->
  (st_badn n <> [] ->
     exists s', st_call predict ck s g (nth n ins []) = CallMismatch s' (Z.of_nat n) (st_badn n)) /\
  (st_badn n = [] ->
     exists s' g', st_call predict ck s g (nth n ins []) = CallOk s' g' (st_expected_requests np d k ins (Z.of_nat n)) /\
       STn (S n) s' g').
Proof.
  intros n s g Hn [I Hsv].
  destruct (st_call_step (Z.of_nat n) (st_cs n) st_fr s g) as [Hmis Hok]; [lia|rewrite Nat2Z.id; exact Hn|exact I| |].
  - intros Hd0 Hdn f Hf Ho. unfold st_fr. f_equal. unfold st_olddom in Ho. lia.
  - rewrite Nat2Z.id in Hmis, Hok. split; [exact Hmis|]. intro Hb. destruct (Hok Hb) as (s' & g' & E & I' & Hsv'). exists s', g'.
    split; [exact E|]. rewrite Hsv in I', Hsv'. split; [|exact Hsv'].
    rewrite Nat2Z.inj_succ, <- Z.add_1_r. exact I'.
Qed.

Lemma st_run_good : forall mid pre post s g,
  ins = pre ++ mid ++ post -> STn (length pre) s g ->
  (forall n, (length pre <= n < length pre + length mid)%nat -> st_badn n = []) ->
  exists s' g',
    st_run predict ck s g mid =
      RunOk s' g' (map (st_expected_requests np d k ins) (st_zrange (Z.of_nat (length pre)) (length mid))) /\
    STn (length pre + length mid) s' g'.
Proof.
  induction mid as [|vs mid IH]; intros pre post s g Hsplit I Hgood.
  - exists s, g. rewrite Nat.add_0_r. split; [reflexivity|exact I].
  - assert (Hnth : nth (length pre) ins [] = vs) by (rewrite Hsplit; apply nth_middle).
    assert (Hlt : (length pre < length ins)%nat) by (rewrite Hsplit, !app_length; cbn [length]; lia).
    destruct (st_call_step_n (length pre) s g Hlt I) as [_ Hok].
    destruct (Hok (Hgood (length pre) ltac:(cbn [length]; lia))) as (s1 & g1 & Ecall & I1). rewrite Hnth in Ecall.
    assert (Hl : length (pre ++ [vs]) = S (length pre)) by (rewrite app_length; apply Nat.add_1_r).
    destruct (IH (pre ++ [vs]) post s1 g1) as (s' & g' & Erun & I'); rewrite ?Hl.
    + rewrite Hsplit, <- app_assoc. reflexivity.
    + exact I1.
    + intros n Hn. apply Hgood. cbn [length]. lia.
    + rewrite Hl, Nat2Z.inj_succ, <- Z.add_1_r in Erun. rewrite Hl, Nat.add_succ_comm in I'.
      exists s', g'. cbn [st_run length st_zrange map]. rewrite Ecall, Erun. split; [reflexivity|exact I'].
Qed.

Lemma STn_init : STn 0 st_s0 (st_game0 w).
Proof. split; [apply st_s0_inv|reflexivity]. Qed.

Theorem st_run_clean : (forall n, st_badn n = []) ->
  exists s g,
    st_run predict ck st_s0 (st_game0 w) ins =
      RunOk s g (map (st_expected_requests np d k ins) (st_zrange 0 (length ins))) /\
    s_current (st_sync s) = Z.of_nat (length ins) /\
    sg_tl g = st_TL (length ins) /\
    Forall (fun e => snd e = st_E (fst e)) (sg_log g).
Proof.
  intro Hgood.
  destruct (st_run_good ins [] [] st_s0 (st_game0 w)) as (s & g & Erun & [I _]); auto using STn_init.
  { rewrite app_nil_r. reflexivity. }
  exists s, g. split; [exact Erun|]. cbn [length Nat.add] in I. destruct I as [F _ _ _ G _].
  split; [exact (sy_cur (fb_sy F))|]. split; [|exact (gi_log _ _ G)].
  rewrite (gi_tl _ _ G). unfold st_TLz. rewrite Nat2Z.id. reflexivity.
Qed.

Theorem st_run_caught : forall n, (n < length ins)%nat ->
  (forall m, (m < n)%nat -> st_badn m = []) -> st_badn n <> [] ->
  exists s,
    st_run predict ck st_s0 (st_game0 w) ins =
      RunStop (map (st_expected_requests np d k ins) (st_zrange 0 n)) (CallMismatch s (Z.of_nat n) (st_badn n)).
Proof.
  intros n Hn Hgood Hbad. destruct (nth_split ins [] Hn) as (pre & post & Hsplit & Hlen).
  destruct (st_run_good pre [] (nth n ins [] :: post) st_s0 (st_game0 w)) as (s & g & Erun & I); auto using STn_init.
  { intros m Hm. apply Hgood. cbn [length] in Hm. lia. }
  cbn [length Nat.add] in Erun, I. rewrite Hlen in Erun, I.
  destruct (st_call_step_n n s g Hn I) as [Hmis _]. destruct (Hmis Hbad) as (s' & Ecall). exists s'.
  replace (st_run predict ck st_s0 (st_game0 w) ins)
    with (st_run predict ck st_s0 (st_game0 w) (pre ++ nth n ins [] :: post)) by (rewrite <- Hsplit; reflexivity).
  rewrite st_run_app, Erun. cbn [st_run]. rewrite Ecall, app_nil_r. reflexivity.
Qed.

Section Noisy.
Variable F : Z.
Hypothesis Hnoisy : st_noisy_at ck F.

Lemma st_cs_other : forall n f, Z.max 0 f <> F -> st_cs n f = st_ckf 0 f.
Proof using Hnoisy.
  induction n as [|n IH]; intros f Hf; cbn [st_cs]; [reflexivity|]. unfold st_saved_val.
  destruct (_ && _); [|apply IH; exact Hf]. apply (proj1 Hnoisy). rewrite st_TLz_length. exact Hf.
Qed.

Lemma st_cs_saved : forall n f, 0 < d -> 0 <= f < Z.of_nat n ->
  exists a, (a < st_nsaves n)%nat /\ st_cs n f = st_ckf a f.
Proof.
  induction n as [|n IH]; intros f Hd0 Hf; [lia|]. cbn [st_cs st_nsaves]. unfold st_saved_val.
  destruct (st_f0_nsv (Z.of_nat n) ltac:(lia) Hd0) as (Hs & Hf0 & Hn1).
  destruct ((st_f0 (Z.of_nat n) <=? f) && (f <? st_f0 (Z.of_nat n) + Z.of_nat (st_nsv (Z.of_nat n)))) eqn:E.
  - eexists. split; [|reflexivity]. lia.
  - destruct (IH f Hd0 ltac:(lia)) as (a & Ha & Ea). exists a. split; [lia|exact Ea].
Qed.

Lemma st_badn_other : forall n x, Z.max 0 x <> F ->
  st_olddom (Z.of_nat n) x && negb (st_opt_eqb (st_fr x) (st_cs n x)) = false.
Proof using Hnoisy.
  intros n x Hx. unfold st_fr. rewrite !st_cs_other, st_opt_eqb_refl by exact Hx. apply andb_false_r.
Qed.

Lemma st_badn_nil : forall n, (Z.of_nat n - d <= F -> st_olddom (Z.of_nat n) F = false) -> st_badn n = [].
Proof using Hnoisy.
  clear predict Hnp Hd Hk Hcap Hins. intros n HF. unfold st_badn, st_bad. destruct ((0 <? d) && (d <? Z.of_nat n)) eqn:Ec; [|reflexivity].
  apply st_filter_none. intros x Hx. apply zrange_in in Hx.
  destruct (Z.eq_dec x F) as [->|Hne]; [rewrite HF by lia; reflexivity|]. apply st_badn_other. lia.
Qed.

(* F is compared with its first checksum once it was saved twice: in the call after the first one
   that resimulates it *)
Lemma st_badn_caught : forall m, 2 <= F -> 2 <= d -> Z.of_nat m = Z.max F d + 1 -> st_badn (S m) = [F].
Proof.
  intros m HF Hd2 Hm. unfold st_badn, st_bad.
  assert (Hc : Z.of_nat (S m) = Z.max F d + 2) by lia. rewrite Hc.
  assert ((0 <? d) && (d <? Z.max F d + 2) = true) as -> by lia.
  destruct (st_cs_saved m F ltac:(lia) ltac:(lia)) as (a & Ha & Ea).
  assert (Eb : st_cs (S m) F = st_ckf (st_nsaves m + Z.to_nat (F - st_f0 (Z.of_nat m))) F).
  { cbn [st_cs]. unfold st_saved_val, st_f0, st_nsv. rewrite Hm.
    assert ((0 <? d) && (d <? Z.max F d + 1) = true) as -> by lia.
    assert ((0 <? d) = true) as -> by lia. assert ((d <? Z.max F d + 1) = true) as -> by lia.
    assert ((Z.max F d + 1 - d + 1 <=? F) && (F <? Z.max F d + 1 - d + 1 + Z.of_nat (Z.to_nat d)) = true) as -> by lia.
    reflexivity. }
  apply st_filter_single.
  - apply zrange_nodup.
  - apply zrange_in. lia.
  - unfold st_fr. replace (Z.to_nat (Z.max (F + 1) (d + 1))) with m by lia. rewrite Ea, Eb. unfold st_olddom.
    assert ((d + 1 <? Z.max F d + 2) && (F <=? Z.max F d + 2 - 2) = true) as -> by lia. cbn [andb].
    apply negb_true_iff, not_true_is_false. rewrite st_opt_eqb_eq.
    apply (proj2 Hnoisy); [rewrite st_TLz_length|]; lia.
  - intros x Hx Hne. apply zrange_in in Hx. rewrite <- Hc. apply st_badn_other. lia.
Qed.

(* nondeterminism that is never caught: frames 0 and 1, check distances 0 and 1 *)
Lemma st_badn_blind : d <= 1 \/ F <= 1 -> forall n, st_badn n = [].
Proof using Hnoisy. clear predict Hnp Hd Hk Hcap Hins. intros Hblind n. apply st_badn_nil. intro HF. unfold st_olddom. lia. Qed.

Theorem st_detection : 2 <= F -> 2 <= d -> Z.max F d + 3 <= Z.of_nat (length ins) ->
  exists s,
    st_run predict ck st_s0 (st_game0 w) ins =
      RunStop (map (st_expected_requests np d k ins) (st_zrange 0 (Z.to_nat (Z.max F d + 2))))
              (CallMismatch s (Z.max F d + 2) [F]).
Proof.
  intros HF Hd2 Hlen.
  assert (Hb : st_badn (Z.to_nat (Z.max F d + 2)) = [F]).
  { replace (Z.to_nat (Z.max F d + 2)) with (S (Z.to_nat (Z.max F d + 1))) by lia. apply st_badn_caught; lia. }
  destruct (st_run_caught (Z.to_nat (Z.max F d + 2))) as (s & E).
  - lia.
  - intros m Hm. apply st_badn_nil. intros _. unfold st_olddom. lia.
  - rewrite Hb. discriminate.
  - exists s. rewrite Hb, Z2Nat.id in E by lia. exact E.
Qed.

End Noisy.

End Run.

Lemma st_deterministic_noisy : forall ck, st_deterministic ck -> st_noisy_at ck (-1).
Proof. intros ck H. split; intros n m tl Hl; [apply H|lia]. Qed.

Lemma st_last_set_nonneg : forall (sel : call -> option Z) cs dflt,
  0 <= dflt -> (forall c v, In c cs -> sel c = Some v -> 0 <= v) -> 0 <= last_set sel dflt cs.
Proof.
  intros sel. induction cs as [|c r IH]; intros dflt Hd H; cbn [last_set]; [exact Hd|].
  apply IH.
  - destruct (sel c) eqn:E; [apply (H c z (or_introl eq_refl) E)|exact Hd].
  - intros c0 v Hin. apply H. right. exact Hin.
Qed.

(* a SyncTestSession only exists for check_distance < max_prediction, without sparse saving, with at
   least one player *)
Theorem st_builder_gate : 1 <= DEFAULT_PLAYERS -> forall cs n np w cd dl, Forall usize_call cs ->
  run_calls cs FSyncTest = (n, Ok (SSyncTest np w cd dl)) ->
  1 <= np /\ 0 <= cd < w /\ 0 <= dl /\ sparse_of cs = false /\
  np = np_of cs /\ w = window_of cs /\ cd = check_dist_of cs /\ dl = delay_of cs.
Proof.
  intros Hdp cs n np w cd dl Hu Hrun.
  pose proof (other_sessions_shape Hdp cs FSyncTest n _ Hu Hrun) as (_ & A1 & A2 & A3 & A4 & A5 & A6).
  destruct (builder_spec Hdp cs FSyncTest Hu) as (_ & Hv & _).
  assert (Hval : valid_calls cs FSyncTest) by (apply Hv; rewrite Hrun; eexists; reflexivity).
  destruct Hval as (_ & _ & Hsp).
  rewrite Forall_forall in Hu.
  assert (0 <= cd).
  { subst cd. apply st_last_set_nonneg; [vm_compute; discriminate|].
    intros c v Hin Hs. specialize (Hu c Hin). destruct c; try discriminate. inversion Hs; subst. exact Hu. }
  assert (0 <= dl).
  { subst dl. apply st_last_set_nonneg; [vm_compute; discriminate|].
    intros c v Hin Hs. specialize (Hu c Hin). destruct c; try discriminate. inversion Hs; subst. exact Hu. }
  repeat split; auto; lia.
Qed.

(* the final states of a run are large: an evaluated run is compared through its summary *)
Definition st_run_summary (r : st_runres) : list (list request) * option (Z * list Z) * bool :=
  match r with
  | RunOk _ _ outs => (outs, None, true)
  | RunStop outs (CallMismatch _ c fs) => (outs, Some (c, fs), false)
  | RunStop outs _ => (outs, None, false)
  end.

Lemma st_summary_ok : forall r outs, st_run_summary r = (outs, None, true) -> exists s g, r = RunOk s g outs.
Proof.
  intros [s g o|o why] outs H; cbn in H.
  - inversion H; subst. eauto.
  - destruct why; discriminate.
Qed.

Lemma st_summary_mismatch : forall r outs c fs, st_run_summary r = (outs, Some (c, fs), false) ->
  exists s, r = RunStop outs (CallMismatch s c fs).
Proof.
  intros [s g o|o why] outs c fs H; cbn in H; [discriminate|].
  destruct why; try discriminate. inversion H; subst. eauto.
Qed.

Definition ex_ck (n : nat) (tl : st_timeline) : option Z :=
  Some (fold_right (fun fi a => fold_right (fun x b => fst x + 3 * b) (7 * a + 1) fi) 0 tl).
Definition ex_ckn (F : Z) (n : nat) (tl : st_timeline) : option Z :=
  if Z.of_nat (length tl) =? F then Some (Z.of_nat n) else ex_ck n tl.
Definition ex_ins : list (list Z) := map (fun i => [Z.of_nat i; 2 * Z.of_nat i + 1]) (seq 0 20).

Lemma ex_ckn_noisy : forall F, st_noisy_at (ex_ckn F) F.
Proof.
  intro F. split; intros n m tl H; unfold ex_ckn.
  - assert ((Z.of_nat (length tl) =? F) = false) as -> by lia. reflexivity.
  - rewrite H, Z.eqb_refl. intros Hn E. inversion E. lia.
Qed.
