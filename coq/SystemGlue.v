(* The link contract of SessionSystem.v ([delivered_was_sent]) from the endpoint theorems of EndpointEvents.v.
   The session-core model (P2P.v) and the endpoint model (Endpoint.v) were written separately and share no datatype;
   this file states the two identities that join them as explicit hypotheses and proves the contract from them:
     (GA) every frame the sending endpoint was handed is a round of the sending session, serialised by send_input
          ([from_inputs] of the round);
     (GB) every SRemote operation of the receiving session is an Input event the receiving endpoint handed out,
          hence justified by the stream (C05_events_were_sent, C05_poll_hands_out_what_was_sent).
   Everything between (GA) and (GB) - the bytes, the codec, acknowledgements, retransmissions, loss, reordering - is
   covered by theorems. *)
From GGRS Require Import Base Consts Queue QueueProofs Sync P2P Session SessionProofs SessionProgress SessionTimeline SessionSystem.
From GGRS Require Endpoint EndpointEvents.
From GGRS Require Import LiaSetup.
Open Scope Z_scope.

(* a round of the session model as the argument of the endpoint's send_input *)
Definition round_inputs (m : list (Z * pinput)) : list (Z * (Z * Z)) :=
  map (fun hp => (fst hp, (pi_frame (snd hp), pi_val (snd hp)))) m.

Lemma alookup_round : forall m h, Endpoint.alookup h (round_inputs m) =
  match assoc_get m h with Some pi => Some (pi_frame pi, pi_val pi) | None => None end.
Proof.
  induction m as [|[k pi] m IH]; intros h; cbn [round_inputs map Endpoint.alookup assoc_get fst snd]; [reflexivity|].
  rewrite Z.eqb_sym. destruct (k =? h); [reflexivity|]. apply IH.
Qed.

Definition urange (np : Z) : list Z := map Z.of_nat (seq 0 (Z.to_nat np)).
(* the players a round mentions, in handle order: the receiving endpoint's player handles *)
Definition present (np : Z) (inputs : list (Z * (Z * Z))) : list Z :=
  filter (fun h => match Endpoint.alookup h inputs with Some _ => true | None => false end) (urange np).
Definition value_of (inputs : list (Z * (Z * Z))) (h : Z) : Z :=
  match Endpoint.alookup h inputs with Some (_, v) => v | None => 0 end.

Lemma sent_values_present : forall l inputs,
  EndpointEvents.sent_values l inputs =
  map (value_of inputs) (filter (fun h => match Endpoint.alookup h inputs with Some _ => true | None => false end) l).
Proof.
  induction l as [|h l IH]; intros inputs; cbn [EndpointEvents.sent_values flat_map filter map]; [reflexivity|].
  fold (EndpointEvents.sent_values l inputs). rewrite IH. unfold value_of at 1.
  destruct (Endpoint.alookup h inputs) as [[f v]|] eqn:E; cbn [app map]; [unfold value_of at 1; rewrite E|]; reflexivity.
Qed.

(* send_input insists on one frame number for the whole round *)
Lemma from_inputs_go_frames : forall l inputs frame acc k b,
  Endpoint.from_inputs_go l inputs frame acc = Ok (k, b) ->
  (frame = NULL \/ frame = k) /\
  forall h fh v, In h l -> Endpoint.alookup h inputs = Some (fh, v) -> fh = NULL \/ fh = k.
Proof.
  induction l as [|h0 l IH]; intros inputs frame acc k b H; cbn [Endpoint.from_inputs_go] in H.
  - inversion H; subst. split; [right; reflexivity|intros h fh v []].
  - destruct (Endpoint.alookup h0 inputs) as [[f0 v0]|] eqn:E.
    + destruct ((frame =? NULL) || (f0 =? NULL) || (frame =? f0)) eqn:C; [|discriminate].
      destruct (IH _ _ _ _ _ H) as (A & B).
      assert (Hc : frame = NULL \/ f0 = NULL \/ frame = f0) by lia.
      revert A B. destruct (Z.eqb_spec f0 NULL) as [E0|E0]; intros A B.
      * split; [exact A|]. intros h fh v [<-|Hin] Hl.
        -- rewrite E in Hl. inversion Hl; subst fh v. left. exact E0.
        -- exact (B h fh v Hin Hl).
      * split; [destruct A as [A|A]; [congruence|]; destruct Hc as [X|[X|X]]; [left; exact X|congruence|right; congruence]|].
        intros h fh v [<-|Hin] Hl.
        -- rewrite E in Hl. inversion Hl; subst fh v. exact A.
        -- exact (B h fh v Hin Hl).
    + destruct (IH _ _ _ _ _ H) as (A & B). split; [exact A|].
      intros h fh v [<-|Hin] Hl; [congruence|exact (B h fh v Hin Hl)].
Qed.

Section Glue.
Variable np : Z.              (* players of the session *)
Variable hs : list Z.         (* the receiving endpoint's player handles = the sender's local players, ascending *)

(* (GA) the sending endpoint was handed the sending session's rounds *)
Definition sender_fed (outsA : list (pout * apires)) (sent : list Endpoint.ibytes) : Prop :=
  forall k b, In (k, b) sent -> exists m, In m (all_sends outsA) /\ Endpoint.from_inputs np (round_inputs m) = Ok (k, b).
(* (GB) the receiving session's remote-input operations are Input events the receiving endpoint handed out *)
Definition receiver_reads (sent : list Endpoint.ibytes) (opsB : list sop) (h : Z) : Prop :=
  forall f v, In (SRemote h f v) opsB -> EndpointEvents.ev_justified (length hs) hs sent (Endpoint.EvInput f v h).
(* every round names exactly the receiver's handles, with a real frame number and u32 values *)
Definition rounds_shaped (outsA : list (pout * apires)) : Prop :=
  forall m, In m (all_sends outsA) -> present np (round_inputs m) = hs /\
    Forall (fun hp => pi_frame (snd hp) <> NULL /\ 0 <= pi_val (snd hp) < 4294967296) m.

Theorem link_contract_from_endpoints : forall outsA sent opsB h,
  hs <> [] -> sender_fed outsA sent -> rounds_shaped outsA -> receiver_reads sent opsB h ->
  delivered_was_sent h outsA opsB.
Proof.
  intros outsA sent opsB h Hne HA HS HB f v Hin.
  destruct (HB f v Hin) as (b & vals & a & Hsent & Hdec & Hv & Hh).
  destruct (HA f b Hsent) as (m & Hm & Hfrom). exists m. split; [exact Hm|].
  destruct (HS m Hm) as (Hpres & Hshape). rewrite Forall_forall in Hshape.
  set (inputs := round_inputs m) in *.
  assert (Hvs : EndpointEvents.sent_values (urange np) inputs = map (value_of inputs) hs).
  { rewrite sent_values_present. fold (present np inputs). rewrite Hpres. reflexivity. }
  (* what the receiver decodes is what the round carries *)
  pose proof (EndpointEvents.to_player_inputs_from_inputs np inputs f b Hfrom) as Hrt. cbv zeta in Hrt.
  fold (urange np) in Hrt. rewrite Hvs in Hrt.
  assert (Hu : Forall (fun v0 => 0 <= v0 < 4294967296) (map (value_of inputs) hs)).
  { apply Forall_forall. intros x Hx. apply in_map_iff in Hx. destruct Hx as (h0 & <- & _). unfold value_of, inputs.
    rewrite alookup_round. destruct (assoc_get m h0) as [pi|] eqn:Eg; [|lia].
    exact (proj2 (Hshape _ (assoc_get_In _ _ _ Eg))). }
  specialize (Hrt ltac:(destruct hs; [congruence|discriminate]) Hu). rewrite map_length in Hrt.
  rewrite Hrt in Hdec. injection Hdec as <-.
  (* the a-th value belongs to the a-th handle, which is h *)
  rewrite nth_error_map, Hh in Hv. cbn [option_map] in Hv. injection Hv as Hv. unfold value_of, inputs in Hv.
  assert (Hhin : In h (present np inputs)) by (rewrite Hpres; exact (nth_error_In _ _ Hh)).
  unfold present in Hhin. apply filter_In in Hhin. destruct Hhin as (Hrange & Hsome). unfold inputs in Hsome.
  rewrite alookup_round in Hv, Hsome. destruct (assoc_get m h) as [pi|] eqn:Eg; [|discriminate].
  (* and its frame is the frame of the round *)
  unfold Endpoint.from_inputs in Hfrom. destruct (from_inputs_go_frames _ _ _ _ _ _ Hfrom) as (_ & Hfr).
  assert (Hl : Endpoint.alookup h inputs = Some (pi_frame pi, pi_val pi)) by (unfold inputs; rewrite alookup_round, Eg; reflexivity).
  destruct (Hfr h _ _ Hrange Hl) as [X|X].
  - exfalso. exact (proj1 (Hshape _ (assoc_get_In _ _ _ Eg)) X).
  - destruct pi as [pf pv]. cbn [pi_frame pi_val] in *. subst. reflexivity.
Qed.

End Glue.
