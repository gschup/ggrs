(* What the functions of Sync.v, P2P.v and Session.v compute, call by call: one equation or
   inversion lemma per function, so that the proofs about sessions follow the calls of the code
   instead of unfolding the model. *)
From GGRS Require Import Base Consts Queue Sync P2P Session.
From GGRS Require Import LiaSetup.
Open Scope Z_scope.

Lemma res_bind_ok {A B} : forall (r : res A) (f : A -> res B) x,
  res_bind r f = Ok x -> exists a, r = Ok a /\ f a = Ok x.
Proof. intros r f x H. destruct r; cbn in H; try discriminate. eauto. Qed.

Lemma fold_res_rel {A X} (R : A -> A -> Prop) (f : A -> X -> res A) :
  (forall a, R a a) -> (forall a b c, R a b -> R b c -> R a c) ->
  (forall a x b, f a x = Ok b -> R a b) ->
  forall l a b, fold_left (fun ra x => res_bind ra (fun a => f a x)) l (Ok a) = Ok b -> R a b.
Proof.
  intros Hrefl Htrans Hstep l.
  assert (G : forall ra b, fold_left (fun ra x => res_bind ra (fun a => f a x)) l ra = Ok b ->
              exists a', ra = Ok a' /\ forall a, R a a' -> R a b).
  { induction l as [|x l IH]; intros ra b H; cbn [fold_left] in H.
    - exists b. split; [exact H|auto].
    - destruct (IH _ _ H) as (a1 & E1 & H1). apply res_bind_ok in E1. destruct E1 as (a' & -> & E1).
      exists a'. split; [reflexivity|]. intros a Ha. apply H1. eapply Htrans; [exact Ha|]. eapply Hstep. exact E1. }
  intros a b H. destruct (G _ _ H) as (a' & E & H'). injection E as <-. apply H'. apply Hrefl.
Qed.

Definition add_reqs (o : pout) (R : list request) : pout :=
  mko (o_requests o ++ R) (o_remote_sends o) (o_spec_sends o).
Lemma add_reqs_nil : forall o, add_reqs o [] = o.
Proof. intros [r a b]. unfold add_reqs. cbn. rewrite app_nil_r. reflexivity. Qed.
Lemma add_reqs_app : forall o R1 R2, add_reqs (add_reqs o R1) R2 = add_reqs o (R1 ++ R2).
Proof. intros o R1 R2. unfold add_reqs. cbn. rewrite app_assoc. reflexivity. Qed.

Definition saved (s : sync) : sync :=
  mks (s_maxpred s) (updz (s_cells s) (Z.to_nat (cell_pos s (s_current s))) (s_current s))
      (s_last_confirmed s) (s_current s) (s_current s) (s_queues s).

Lemma save_current_state_ok : forall s s' r,
  save_current_state s = Ok (s', r) <-> 0 <= s_current s /\ s' = saved s /\ r = RSave (s_current s).
Proof.
  intros s s' r. unfold save_current_state. destruct (Z.ltb_spec (s_current s) 0) as [H|H].
  - split; [discriminate|]. intros (A & _). lia.
  - split; [intros E; injection E as <- <-; auto|]. intros (_ & -> & ->). reflexivity.
Qed.

Lemma load_frame_ok : forall s f r,
  load_frame s f = Ok r <->
  0 <= f < s_current s /\ s_current s - s_maxpred s <= f /\ cell_frame s f = f /\ r = (with_current s f, RLoad f).
Proof.
  intros s f r. unfold load_frame.
  destruct (Z.eqb_spec f NULL) as [E1|E1]; [split; [discriminate|]; intros (A & _); unfold NULL in E1; lia|].
  destruct (Z.ltb_spec f (s_current s)) as [E2|E2]; cbn [negb]; [|split; [discriminate|]; intros (A & _); lia].
  destruct (Z.ltb_spec f (s_current s - s_maxpred s)) as [E3|E3]; [split; [discriminate|]; intros (_ & A & _); lia|].
  destruct (Z.ltb_spec f 0) as [E4|E4]; [split; [discriminate|]; intros (A & _); lia|].
  destruct (Z.eqb_spec (cell_frame s f) f) as [E5|E5]; cbn [negb]; [|split; [discriminate|]; intros (_ & _ & A & _); contradiction].
  split; [intros E; injection E as <-; auto|]. intros (_ & _ & _ & ->). reflexivity.
Qed.

(* add_local_input, add_remote_input and set_queue_delay apply a queue operation to the queue of one
   handle and put the result back *)
Definition on_queue {A} (s : sync) (h : Z) (F : queue -> res (queue * A)) : res (sync * A) :=
  if (h <? 0) || (Z.of_nat (length (s_queues s)) <=? h) then Panic else
  res_bind (F (qnth s h)) (fun '(q', r) => Ok (with_queues s (updz (s_queues s) (Z.to_nat h) q'), r)).

Lemma on_queue_ok {A} : forall s h (F : queue -> res (queue * A)) s' r,
  on_queue s h F = Ok (s', r) <->
  0 <= h < Z.of_nat (length (s_queues s)) /\
  exists q', F (qnth s h) = Ok (q', r) /\ s' = with_queues s (updz (s_queues s) (Z.to_nat h) q').
Proof.
  intros s h F s' r. unfold on_queue.
  destruct ((h <? 0) || (Z.of_nat (length (s_queues s)) <=? h)) eqn:E.
  - split; [discriminate|]. intros (A0 & _). lia.
  - split.
    + intros H. apply res_bind_ok in H. destruct H as ([q' r'] & E1 & H). injection H as <- <-.
      split; [lia|]. exists q'. split; [exact E1|reflexivity].
    + intros (_ & q' & E1 & ->). rewrite E1. reflexivity.
Qed.

Lemma add_local_input_eq : forall s h f v,
  add_local_input s h f v =
  if negb (f =? s_current s) then Panic else on_queue s h (fun q => add_input q f v).
Proof. reflexivity. Qed.
Lemma set_queue_delay_eq : forall s h d, set_queue_delay s h d = on_queue s h (fun q => set_frame_delay q d).
Proof. reflexivity. Qed.
Lemma add_remote_input_eq : forall s h f v,
  add_remote_input s h f v = res_bind (on_queue s h (fun q => add_input q f v)) (fun x => Ok (fst x)).
Proof.
  intros s h f v. unfold add_remote_input, on_queue. destruct (_ || _); [reflexivity|].
  destruct (add_input (qnth s h) f v) as [[q' r]| |]; reflexivity.
Qed.

Lemma add_local_input_ok : forall s h f v s' r,
  add_local_input s h f v = Ok (s', r) <->
  f = s_current s /\ 0 <= h < Z.of_nat (length (s_queues s)) /\
  exists q', add_input (qnth s h) f v = Ok (q', r) /\ s' = with_queues s (updz (s_queues s) (Z.to_nat h) q').
Proof.
  intros s h f v s' r. rewrite add_local_input_eq.
  destruct (Z.eqb_spec f (s_current s)) as [E|E]; cbn [negb].
  - rewrite on_queue_ok. tauto.
  - split; [discriminate|]. intros (A0 & _). contradiction.
Qed.

Lemma add_remote_input_ok : forall s h f v s',
  add_remote_input s h f v = Ok s' <->
  0 <= h < Z.of_nat (length (s_queues s)) /\
  exists q' r, add_input (qnth s h) f v = Ok (q', r) /\ s' = with_queues s (updz (s_queues s) (Z.to_nat h) q').
Proof.
  intros s h f v s'. rewrite add_remote_input_eq. split.
  - intros H. apply res_bind_ok in H. destruct H as ([s1 r] & E & H). injection H as <-.
    apply on_queue_ok in E. destruct E as (A0 & q' & E & ->). split; [exact A0|]. exists q', r. split; [exact E|reflexivity].
  - intros (A0 & q' & r & E & ->).
    assert (X : on_queue s h (fun q => add_input q f v) = Ok (with_queues s (updz (s_queues s) (Z.to_nat h) q'), r))
      by (apply on_queue_ok; split; [exact A0|]; exists q'; split; [exact E|reflexivity]).
    rewrite X. reflexivity.
Qed.

Section SyncPredictor.
Variable predict : Z -> Z.

Lemma synchronized_inputs_ok : forall s st s1 ins,
  synchronized_inputs predict s st = Ok (s1, ins) <->
  exists qs, sync_inputs_go predict (s_current s) (s_queues s) st = Ok (qs, ins) /\ s1 = with_queues s qs.
Proof.
  intros s st s1 ins. unfold synchronized_inputs. split.
  - intros H. apply res_bind_ok in H. destruct H as ([qs ins'] & E & H). injection H as <- <-. eauto.
  - intros (qs & E & ->). rewrite E. reflexivity.
Qed.

End SyncPredictor.

(* set_last_confirmed_frame: the frame it settles on, and the state it leaves *)
Definition confirm_target (s : sync) (frame : Z) (sparse : bool) : Z :=
  Z.min (if sparse then Z.min frame (s_last_saved s) else frame) (s_current s).
Definition confirmed_at (s : sync) (L : Z) : sync :=
  mks (s_maxpred s) (s_cells s) L (s_last_saved s) (s_current s)
      (if 0 <? L then map (fun q => discard_confirmed_frames q (L - 1)) (s_queues s) else s_queues s).

Lemma set_last_confirmed_frame_ok : forall s f sp s',
  set_last_confirmed_frame s f sp = Ok s' <->
  (max_first_incorrect (s_queues s) = NULL \/ confirm_target s f sp <= max_first_incorrect (s_queues s)) /\
  s' = confirmed_at s (confirm_target s f sp).
Proof.
  intros s f sp s'. unfold set_last_confirmed_frame. fold (confirm_target s f sp).
  destruct (Z.eqb_spec (max_first_incorrect (s_queues s)) NULL) as [E|E]; cbn [orb negb].
  - split; [intros H; injection H as <-; auto|]. intros (_ & ->). reflexivity.
  - destruct (Z.leb_spec (confirm_target s f sp) (max_first_incorrect (s_queues s))) as [E2|E2]; cbn [negb].
    + split; [intros H; injection H as <-; auto|]. intros (_ & ->). reflexivity.
    + split; [discriminate|]. intros ([A0|A0] & _); [contradiction|lia].
Qed.

(* check_simulation_consistency: the earliest frame among the start value and the queues' first
   incorrect frames, NULL standing for "none" *)
Definition csc_fold (qs : list queue) (acc : Z) : Z :=
  fold_left (fun acc q => let inc := q_first_incorrect q in
                          if negb (inc =? NULL) && ((acc =? NULL) || (inc <? acc)) then inc else acc) qs acc.
Lemma check_simulation_consistency_eq : forall s a, check_simulation_consistency s a = csc_fold (s_queues s) a.
Proof. reflexivity. Qed.

Lemma csc_fold_min : forall qs acc,
  (csc_fold qs acc = acc \/ exists q, In q qs /\ q_first_incorrect q = csc_fold qs acc /\ csc_fold qs acc <> NULL) /\
  (acc <> NULL -> csc_fold qs acc <> NULL /\ csc_fold qs acc <= acc) /\
  Forall (fun q => q_first_incorrect q <> NULL -> csc_fold qs acc <> NULL /\ csc_fold qs acc <= q_first_incorrect q) qs.
Proof.
  induction qs as [|q qs IH]; intros acc.
  - split; [left; reflexivity|]. split; [intros H; split; [exact H|cbn; lia]|constructor].
  - change (csc_fold (q :: qs) acc) with
      (csc_fold qs (if negb (q_first_incorrect q =? NULL) && ((acc =? NULL) || (q_first_incorrect q <? acc))
                    then q_first_incorrect q else acc)).
    set (acc' := if negb (q_first_incorrect q =? NULL) && ((acc =? NULL) || (q_first_incorrect q <? acc))
                 then q_first_incorrect q else acc).
    destruct (IH acc') as (A & B & C). set (r := csc_fold qs acc') in *.
    assert (Hacc' : (acc' = acc \/ (acc' = q_first_incorrect q /\ acc' <> NULL)) /\
                    (acc <> NULL -> acc' <> NULL /\ acc' <= acc) /\
                    (q_first_incorrect q <> NULL -> acc' <> NULL /\ acc' <= q_first_incorrect q)).
    { subst acc'. destruct (Z.eqb_spec (q_first_incorrect q) NULL) as [En|En]; cbn [negb andb].
      - split; [left; reflexivity|]. split; [intros H; split; [exact H|lia]|contradiction].
      - destruct (Z.eqb_spec acc NULL) as [Ea|Ea]; cbn [orb].
        + split; [right; split; [reflexivity|exact En]|]. split; [contradiction|]. intros _. split; [exact En|lia].
        + destruct (Z.ltb_spec (q_first_incorrect q) acc).
          * split; [right; split; [reflexivity|exact En]|]. split; intros _; (split; [exact En|lia]).
          * split; [left; reflexivity|]. split; intros _; (split; [exact Ea|lia]). }
    destruct Hacc' as (D1 & D2 & D3).
    split; [|split].
    + destruct A as [A|(q0 & A1 & A2 & A3)].
      * destruct D1 as [D1|(D1 & D1')]; [left; congruence|right]. exists q. split; [left; reflexivity|]. split; congruence.
      * right. exists q0. split; [right; exact A1|]. split; assumption.
    + intros H. destruct (D2 H) as (X1 & X2). destruct (B X1) as (Y1 & Y2). split; [exact Y1|lia].
    + constructor; [|exact C]. intros H. destruct (D3 H) as (X1 & X2). destruct (B X1) as (Y1 & Y2). split; [exact Y1|lia].
Qed.

Definition add_rsends (o : pout) (rs : list (list (Z * pinput))) : pout :=
  mko (o_requests o) (o_remote_sends o ++ rs) (o_spec_sends o).
Definition add_ssends (o : pout) (ss : list (Z * list pinput)) : pout :=
  mko (o_requests o) (o_remote_sends o) (o_spec_sends o ++ ss).
Lemma add_rsends_nil : forall o, add_rsends o [] = o.
Proof. intros [r a b]. unfold add_rsends. cbn. rewrite app_nil_r. reflexivity. Qed.
Lemma add_ssends_nil : forall o, add_ssends o [] = o.
Proof. intros [r a b]. unfold add_ssends. cbn. rewrite app_nil_r. reflexivity. Qed.

Lemma with_outgoing_self : forall p, with_outgoing p (ps_outgoing p) (ps_last_sent_out p) = p.
Proof. destruct p; reflexivity. Qed.
Lemma with_sync_self : forall p, with_sync p (ps_sync p) = p.
Proof. destruct p; reflexivity. Qed.
Lemma with_queues_self : forall s, with_queues s (s_queues s) = s.
Proof. destruct s; reflexivity. Qed.
Lemma with_next_spec_self : forall p, with_next_spec p (ps_next_spec p) = p.
Proof. destruct p; reflexivity. Qed.

Definition queued (p : p2p) (h : Z) (i : pinput) : p2p :=
  match ps_remotes p with
  | [] => p
  | _ => with_outgoing p (assoc_put (ps_outgoing p) (pi_frame i)
                            (assoc_put (match assoc_get (ps_outgoing p) (pi_frame i) with Some m => m | None => [] end) h i))
                       (ps_last_sent_out p)
  end.
Lemma queue_outgoing_eq : forall p h i, queue_outgoing p h i = if pi_frame i =? NULL then Panic else Ok (queued p h i).
Proof. intros p h i. unfold queue_outgoing, queued. destruct (pi_frame i =? NULL); [reflexivity|]. destruct (ps_remotes p); reflexivity. Qed.

Lemma queue_outgoing_shape : forall p h i p', queue_outgoing p h i = Ok p' ->
  pi_frame i <> NULL /\ exists og, p' = with_outgoing p og (ps_last_sent_out p).
Proof.
  intros p h i p' H. rewrite queue_outgoing_eq in H. destruct (Z.eqb_spec (pi_frame i) NULL) as [E|E]; [discriminate|].
  injection H as <-. split; [exact E|]. unfold queued. destruct (ps_remotes p); [|eexists; reflexivity].
  exists (ps_outgoing p). symmetry. apply with_outgoing_self.
Qed.

Lemma queue_blanks_shape : forall n p h f p', queue_blanks n p h f = Ok p' ->
  exists og, p' = with_outgoing p og (ps_last_sent_out p).
Proof.
  induction n as [|n IH]; intros p h f p' H; cbn [queue_blanks] in H.
  - injection H as <-. exists (ps_outgoing p). symmetry. apply with_outgoing_self.
  - apply res_bind_ok in H. destruct H as (p1 & E1 & H).
    apply queue_outgoing_shape in E1. destruct E1 as (_ & og1 & ->).
    apply IH in H. destruct H as (og & ->). exists og. reflexivity.
Qed.

Lemma nothing_sent : forall p o, exists og ls rs, p = with_outgoing p og ls /\ o = add_rsends o rs.
Proof.
  intros p o. exists (ps_outgoing p), (ps_last_sent_out p), [].
  split; [symmetry; apply with_outgoing_self|symmetry; apply add_rsends_nil].
Qed.

Lemma send_ready_go_shape : forall n p locals o p' o', send_ready_go n p locals o = Ok (p', o') ->
  exists og ls rs, p' = with_outgoing p og ls /\ o' = add_rsends o rs.
Proof.
  induction n as [|n IH]; intros p locals o p' o' H; cbn [send_ready_go] in H.
  - injection H as <- <-. apply nothing_sent.
  - destruct (next_complete p locals) as [f|]; [|injection H as <- <-; apply nothing_sent].
    destruct (assoc_get (ps_outgoing p) f) as [m|]; [|discriminate].
    apply IH in H. destruct H as (og & ls & rs & -> & ->). exists og, ls.
    destruct (existsb ev_running (ps_remotes p)).
    + exists (m :: rs). split; [reflexivity|]. unfold add_rsends, add_rsend. cbn. rewrite <- app_assoc. reflexivity.
    + exists rs. split; reflexivity.
Qed.

Lemma send_ready_outgoing_shape : forall p o p' o', send_ready_outgoing p o = Ok (p', o') ->
  exists og ls rs, p' = with_outgoing p og ls /\ o' = add_rsends o rs.
Proof.
  intros p o p' o' H. unfold send_ready_outgoing in H.
  destruct (ps_remotes p); [injection H as <- <-; apply nothing_sent|].
  destruct (local_handles p); [injection H as <- <-; apply nothing_sent|].
  eapply send_ready_go_shape. exact H.
Qed.

Definition inputs_only (p p' : p2p) : Prop :=
  exists qs st og ls, p' = with_outgoing (with_status (with_sync p (with_queues (ps_sync p) qs)) st) og ls.
Lemma inputs_only_refl : forall p, inputs_only p p.
Proof.
  intros p. exists (s_queues (ps_sync p)), (ps_status p), (ps_outgoing p), (ps_last_sent_out p).
  destruct p as [? ? [? ? ? ? ? ?] ? ? ? ? ? ? ? ? ? ? ? ?]; reflexivity.
Qed.
Lemma inputs_only_trans : forall a b c, inputs_only a b -> inputs_only b c -> inputs_only a c.
Proof. intros a b c (qs1 & st1 & og1 & ls1 & ->) (qs & st & og & ls & ->). exists qs, st, og, ls. reflexivity. Qed.
Lemma inputs_only_queues : forall p qs, inputs_only p (with_sync p (with_queues (ps_sync p) qs)).
Proof. intros p qs. exists qs, (ps_status p), (ps_outgoing p), (ps_last_sent_out p). destruct p; reflexivity. Qed.
Lemma inputs_only_status : forall p st, inputs_only p (with_status p st).
Proof.
  intros p st. exists (s_queues (ps_sync p)), st, (ps_outgoing p), (ps_last_sent_out p).
  destruct p as [? ? [? ? ? ? ? ?] ? ? ? ? ? ? ? ? ? ? ? ?]; reflexivity.
Qed.
Lemma inputs_only_outgoing : forall p og ls, inputs_only p (with_outgoing p og ls).
Proof.
  intros p og ls. exists (s_queues (ps_sync p)), (ps_status p), og, ls.
  destruct p as [? ? [? ? ? ? ? ?] ? ? ? ? ? ? ? ? ? ? ? ?]; reflexivity.
Qed.

(* register_local_inputs, one handle: the session's bookkeeping once the sync layer took the input *)
Definition register_one (p1 : p2p) (h actual v : Z) : res p2p :=
  if actual =? NULL then Ok p1 else
  res_bind (if cs_last (stat_at p1 h) =? NULL then queue_blanks (Z.to_nat actual) p1 h 0 else Ok p1) (fun p2 =>
    queue_outgoing (with_status p2 (set_stat (ps_status p2) h (mkcs (cs_disc (stat_at p2 h)) actual))) h (mkpi actual v)).

Lemma register_go_cons : forall p h r,
  register_go p (h :: r) =
  match assoc_get (ps_pending p) h with
  | None => Panic
  | Some pi =>
    res_bind (add_local_input (ps_sync p) h (pi_frame pi) (pi_val pi)) (fun '(s', actual) =>
      res_bind (register_one (with_sync p s') h actual (pi_val pi)) (fun p4 => register_go p4 r))
  end.
Proof.
  intros p h r. cbn [register_go]. destruct (assoc_get (ps_pending p) h) as [pi|]; [|reflexivity].
  destruct (add_local_input (ps_sync p) h (pi_frame pi) (pi_val pi)) as [[s' a]| |]; [|reflexivity..].
  cbn [res_bind]. unfold register_one. destruct (a =? NULL); [reflexivity|].
  destruct (if cs_last (stat_at (with_sync p s') h) =? NULL then _ else _) as [p2| |]; [|reflexivity..].
  cbn [res_bind]. destruct (queue_outgoing _ h _); reflexivity.
Qed.

Lemma register_one_shape : forall p1 h actual v p4, register_one p1 h actual v = Ok p4 ->
  exists st og, p4 = with_outgoing (with_status p1 st) og (ps_last_sent_out p1).
Proof.
  intros p1 h actual v p4 H. unfold register_one in H. destruct (actual =? NULL).
  - injection H as <-. exists (ps_status p1), (ps_outgoing p1). destruct p1; reflexivity.
  - apply res_bind_ok in H. destruct H as (p2 & E2 & H).
    assert (exists og2, p2 = with_outgoing p1 og2 (ps_last_sent_out p1)) as (og2 & ->).
    { destruct (cs_last (stat_at p1 h) =? NULL); [eapply queue_blanks_shape; exact E2|].
      injection E2 as <-. exists (ps_outgoing p1). symmetry. apply with_outgoing_self. }
    apply queue_outgoing_shape in H. destruct H as (_ & og & ->). eexists; eexists; reflexivity.
Qed.

Lemma register_go_only : forall hs p p', register_go p hs = Ok p' -> inputs_only p p'.
Proof.
  induction hs as [|h r IH]; intros p p' H.
  - injection H as <-. apply inputs_only_refl.
  - rewrite register_go_cons in H. destruct (assoc_get (ps_pending p) h) as [pi|]; [|discriminate].
    apply res_bind_ok in H. destruct H as ([s' a] & E1 & H).
    apply add_local_input_ok in E1. destruct E1 as (_ & _ & q' & _ & ->).
    apply res_bind_ok in H. destruct H as (p4 & E4 & H).
    apply register_one_shape in E4. destruct E4 as (st4 & og4 & ->).
    eapply inputs_only_trans; [|apply IH; exact H]. eexists; eexists; eexists; eexists; reflexivity.
Qed.

Lemma register_local_inputs_inv : forall p o p' o', register_local_inputs p o = Ok (p', o') ->
  exists p1, register_go p (local_handles p) = Ok p1 /\ send_ready_outgoing p1 o = Ok (p', o').
Proof. intros p o p' o' H. unfold register_local_inputs in H. apply res_bind_ok in H. exact H. Qed.

Lemma register_local_inputs_only : forall p o p' o', register_local_inputs p o = Ok (p', o') ->
  inputs_only p p' /\ exists rs, o' = add_rsends o rs.
Proof.
  intros p o p' o' H. apply register_local_inputs_inv in H. destruct H as (p1 & E1 & H).
  apply register_go_only in E1. apply send_ready_outgoing_shape in H. destruct H as (og & ls & rs & -> & ->).
  split; [eapply inputs_only_trans; [exact E1|apply inputs_only_outgoing]|exists rs; reflexivity].
Qed.

Definition sync_kept (p p' : p2p) : Prop :=
  ps_sync p' = ps_sync p /\ ps_sparse p' = ps_sparse p /\ ps_maxpred p' = ps_maxpred p.
Lemma sync_kept_refl : forall p, sync_kept p p.
Proof. intros p. repeat split. Qed.
Lemma sync_kept_trans : forall a b c, sync_kept a b -> sync_kept b c -> sync_kept a c.
Proof. intros a b c (A1 & A2 & A3) (B1 & B2 & B3). repeat split; congruence. Qed.

Lemma disconnect_player_at_frame_kept : forall p h lf p', disconnect_player_at_frame p h lf = Ok p' -> sync_kept p p'.
Proof.
  intros p h lf p' H. unfold disconnect_player_at_frame in H.
  destruct (kind_at p h) as [[|ep|ep]|]; try discriminate.
  - injection H as <-. apply sync_kept_refl.
  - destruct (nth_error (ps_remotes p) (Z.to_nat ep)); [|discriminate].
    injection H as <-. destruct (lf + 1 <? s_current (ps_sync p)); repeat split.
  - destruct (nth_error (ps_spectators p) (Z.to_nat ep)); [|discriminate]. injection H as <-. repeat split.
Qed.

Lemma update_player_disconnects_kept : forall p p', update_player_disconnects p = Ok p' -> sync_kept p p'.
Proof.
  intros p p'. unfold update_player_disconnects.
  apply (fold_res_rel sync_kept _ sync_kept_refl sync_kept_trans). intros a h b H. cbv zeta in H.
  match type of H with (if ?c then _ else _) = _ => destruct c end.
  - eapply disconnect_player_at_frame_kept. exact H.
  - injection H as <-. apply sync_kept_refl.
Qed.

Lemma ev_disconnected_kept : forall p hs p', ev_disconnected p hs = Ok p' -> sync_kept p p'.
Proof.
  intros p hs p'. unfold ev_disconnected.
  apply (fold_res_rel sync_kept _ sync_kept_refl sync_kept_trans). intros a h b H.
  eapply disconnect_player_at_frame_kept. exact H.
Qed.

Lemma api_disconnect_player_kept : forall p h p' r, api_disconnect_player p h = Ok (p', r) -> sync_kept p p'.
Proof.
  intros p h p' r H. unfold api_disconnect_player in H.
  destruct (h <? 0); [injection H as <- _; apply sync_kept_refl|].
  destruct (kind_at p h) as [[| |]|]; try (injection H as <- _; apply sync_kept_refl).
  - destruct (cs_disc _); [injection H as <- _; apply sync_kept_refl|].
    apply res_bind_ok in H. destruct H as (q & E & H). injection H as <- _. eapply disconnect_player_at_frame_kept. exact E.
  - apply res_bind_ok in H. destruct H as (q & E & H). injection H as <- _. eapply disconnect_player_at_frame_kept. exact E.
Qed.

Lemma gossip_sync : forall p ep st, sync_kept p (gossip p ep st).
Proof. intros p ep st. unfold gossip. destruct (nth_error (ps_remotes p) (Z.to_nat ep)); repeat split. Qed.

Lemma nothing_broadcast : forall p o, exists ns ss, p = with_next_spec p ns /\ o = add_ssends o ss.
Proof.
  intros p o. exists (ps_next_spec p), []. split; [symmetry; apply with_next_spec_self|symmetry; apply add_ssends_nil].
Qed.

Lemma spec_send_go_shape : forall n p cf o p' o', spec_send_go n p cf o = Ok (p', o') ->
  exists ns ss, p' = with_next_spec p ns /\ o' = add_ssends o ss.
Proof.
  induction n as [|k IH]; intros p cf o p' o' H; cbn [spec_send_go] in H.
  - injection H as <- <-. apply nothing_broadcast.
  - destruct (cf <? ps_next_spec p); [injection H as <- <-; apply nothing_broadcast|].
    apply res_bind_ok in H. destruct H as (ins & _ & H).
    destruct (negb _); [discriminate|]. destruct (negb _); [discriminate|].
    apply IH in H. destruct H as (ns & ss & -> & ->). exists ns.
    destruct (existsb _ _).
    + exists ((ps_next_spec p, ins) :: ss). split; [reflexivity|]. unfold add_ssends, add_ssend. cbn. rewrite <- app_assoc. reflexivity.
    + exists ss. split; reflexivity.
Qed.

Lemma send_spectators_shape : forall p cf o p' o', send_confirmed_inputs_to_spectators p cf o = Ok (p', o') ->
  exists ns ss, p' = with_next_spec p ns /\ o' = add_ssends o ss.
Proof.
  intros p cf o p' o' H. unfold send_confirmed_inputs_to_spectators in H.
  destruct (ps_spectators p); [|eapply spec_send_go_shape; exact H].
  injection H as <- <-. apply nothing_broadcast.
Qed.

Lemma ev_input_inv : forall p pl f v p', ev_input p pl f v = Ok p' ->
  p' = p \/ exists s', add_remote_input (ps_sync p) pl f v = Ok s' /\
                       p' = with_status (with_sync p s') (set_stat (ps_status p) pl (mkcs false f)).
Proof.
  intros p pl f v p' H. unfold ev_input in H.
  destruct (negb _); [discriminate|]. destruct (cs_disc _); [injection H as <-; left; reflexivity|].
  destruct (negb _); [discriminate|].
  apply res_bind_ok in H. destruct H as (s' & E & H). injection H as <-. right. exists s'. split; [exact E|reflexivity].
Qed.

Lemma ev_input_only : forall p pl f v p', ev_input p pl f v = Ok p' -> inputs_only p p'.
Proof.
  intros p pl f v p' H. apply ev_input_inv in H. destruct H as [->|(s' & E & ->)]; [apply inputs_only_refl|].
  apply add_remote_input_ok in E. destruct E as (_ & q' & r & _ & ->).
  eapply inputs_only_trans; [apply inputs_only_queues|apply inputs_only_status].
Qed.

Lemma api_set_input_delay_only : forall p h d p' o r, api_set_input_delay p h d = Ok (p', o, r) ->
  inputs_only p p' /\ exists rs, o = add_rsends out0 rs.
Proof.
  intros p h d p' o r H. unfold api_set_input_delay in H.
  assert (Hid : Ok (p, out0, AInvalidRequest) = Ok (p', o, r) -> inputs_only p p' /\ exists rs, o = add_rsends out0 rs).
  { intros E. injection E as <- <- _. split; [apply inputs_only_refl|exists []; reflexivity]. }
  destruct (h <? 0); [exact (Hid H)|]. destruct (kind_at p h) as [[| |]|]; try exact (Hid H).
  apply res_bind_ok in H. destruct H as ([s1 fills] & E1 & H).
  rewrite set_queue_delay_eq in E1. apply on_queue_ok in E1. destruct E1 as (_ & q' & _ & ->).
  apply res_bind_ok in H. destruct H as (p2 & E2 & H).
  apply res_bind_ok in H. destruct H as ([p3 o3] & E3 & H). injection H as <- <- _.
  apply send_ready_outgoing_shape in E3. destruct E3 as (og & ls & rs & -> & ->).
  split; [|exists rs; reflexivity].
  assert (E2' : inputs_only (with_sync p (with_queues (ps_sync p) (updz (s_queues (ps_sync p)) (Z.to_nat h) q'))) p2).
  { revert E2. apply (fold_res_rel inputs_only _ inputs_only_refl inputs_only_trans). intros a x b Hs.
    destruct (pi_frame x =? NULL); [injection Hs as <-; apply inputs_only_refl|].
    apply queue_outgoing_shape in Hs. destruct Hs as (_ & og1 & ->).
    eapply inputs_only_trans; [|apply inputs_only_outgoing]. apply inputs_only_status. }
  eapply inputs_only_trans; [apply inputs_only_queues|]. eapply inputs_only_trans; [exact E2'|apply inputs_only_outgoing].
Qed.

Lemma sop_advance_dec : forall op, op = SAdvance \/ op <> SAdvance.
Proof. destruct op; (left; reflexivity) || (right; discriminate). Qed.

Lemma save_then_ok {A} : forall s (k : sync -> request -> A) x,
  res_bind (save_current_state s) (fun '(s', r) => Ok (k s' r)) = Ok x <->
  0 <= s_current s /\ x = k (saved s) (RSave (s_current s)).
Proof.
  intros s k x. split.
  - intros H. apply res_bind_ok in H. destruct H as ([s1 r] & E & H). injection H as <-.
    apply save_current_state_ok in E. destruct E as (A0 & -> & ->). auto.
  - intros (A0 & ->).
    assert (E : save_current_state s = Ok (saved s, RSave (s_current s))) by (apply save_current_state_ok; auto).
    rewrite E. reflexivity.
Qed.

Definition save_p2p (p : p2p) (o : pout) : res (p2p * pout) :=
  res_bind (save_current_state (ps_sync p)) (fun '(s1, r) => Ok (with_sync p s1, add_req o r)).

Lemma save_p2p_ok : forall p o p' o',
  save_p2p p o = Ok (p', o') <->
  0 <= s_current (ps_sync p) /\ p' = with_sync p (saved (ps_sync p)) /\ o' = add_req o (RSave (s_current (ps_sync p))).
Proof.
  intros p o p' o'. unfold save_p2p. rewrite (save_then_ok _ (fun s1 r => (with_sync p s1, add_req o r))).
  split; intros (A0 & E); (split; [exact A0|]); [injection E as -> ->; auto|destruct E as (-> & ->); reflexivity].
Qed.

Definition all_pending (p : p2p) : bool :=
  forallb (fun h => match assoc_get (ps_pending p) h with Some _ => true | None => false end) (local_handles p).
Lemma all_pending_spec : forall p,
  all_pending p = true <-> forall h, In h (local_handles p) -> exists pi, assoc_get (ps_pending p) h = Some pi.
Proof.
  intros p. unfold all_pending. rewrite forallb_forall. split; intros H h Hin; specialize (H h Hin).
  - destruct (assoc_get (ps_pending p) h); [eauto|discriminate].
  - destruct H as (pi & ->). reflexivity.
Qed.

(* rollback mode saves frame 0 before anything else *)
Definition first_save (p : p2p) : res (p2p * pout) :=
  if (s_current (ps_sync p) =? 0) && negb (ps_maxpred p =? 0) then save_p2p p out0 else Ok (p, out0).

Definition quiet (p p' : p2p) : Prop :=
  ps_nplayers p' = ps_nplayers p /\ ps_kinds p' = ps_kinds p /\ ps_spec_handles p' = ps_spec_handles p /\
  ps_spectators p' = ps_spectators p /\ ps_next_spec p' = ps_next_spec p /\
  ps_outgoing p' = ps_outgoing p /\ ps_last_sent_out p' = ps_last_sent_out p /\ (ps_remotes p' <> [] -> ps_remotes p <> []).

Lemma quiet_refl : forall p, quiet p p.
Proof. intros p. repeat split. intros X; exact X. Qed.

Lemma quiet_local_handles : forall p p', quiet p p' -> local_handles p' = local_handles p.
Proof. intros p p' (A & B & C & _). unfold local_handles, kind_at. rewrite A, B, C. reflexivity. Qed.

Lemma local_quiet : forall p h v, quiet p (fst (api_add_local_input p h v)).
Proof. intros p h v. unfold api_add_local_input. destruct (kind_at p h) as [[| |]|]; repeat split; intros X; exact X. Qed.

Lemma gossip_quiet : forall p ep st, quiet p (gossip p ep st) /\ ps_sync (gossip p ep st) = ps_sync p.
Proof.
  intros p ep st. unfold gossip. destruct (nth_error (ps_remotes p) (Z.to_nat ep)) eqn:E; [|split; [apply quiet_refl|reflexivity]].
  repeat split. cbn [with_remotes ps_remotes]. intros _ X. rewrite X in E. destruct (Z.to_nat ep); discriminate E.
Qed.

Lemma ev_input_quiet : forall p pl f v p', ev_input p pl f v = Ok p' -> quiet p p'.
Proof.
  intros p pl f v p' E. unfold ev_input in E. destruct (negb _); [discriminate|].
  destruct (cs_disc _); [injection E as <-; apply quiet_refl|]. destruct (negb _); [discriminate|].
  apply res_bind_ok in E. destruct E as (s' & _ & E). injection E as <-. repeat split. intros X; exact X.
Qed.

Definition same_sends (o o' : pout) : Prop :=
  o_remote_sends o' = o_remote_sends o /\ o_spec_sends o' = o_spec_sends o.

Lemma same_sends_refl : forall o, same_sends o o.
Proof. intros o. split; reflexivity. Qed.

Lemma same_sends_trans : forall a b c, same_sends a b -> same_sends b c -> same_sends a c.
Proof. intros a b c (A1 & A2) (B1 & B2). split; congruence. Qed.

Lemma first_save_inv : forall p p1 o1, first_save p = Ok (p1, o1) ->
  p1 = with_sync p (ps_sync p1) /\ s_queues (ps_sync p1) = s_queues (ps_sync p) /\
  s_current (ps_sync p1) = s_current (ps_sync p) /\ s_last_confirmed (ps_sync p1) = s_last_confirmed (ps_sync p) /\
  s_maxpred (ps_sync p1) = s_maxpred (ps_sync p) /\ o_remote_sends o1 = [] /\ o_spec_sends o1 = [] /\
  (o_requests o1 = [] \/ o_requests o1 = [RSave (s_current (ps_sync p))]).
Proof.
  intros p p1 o1 E. unfold first_save in E. destruct (_ && _).
  - apply save_p2p_ok in E. destruct E as (_ & -> & ->). repeat split. right. reflexivity.
  - injection E as <- <-. split; [symmetry; apply with_sync_self|]. repeat split. left. reflexivity.
Qed.

Lemma first_save_lockstep : forall p, ps_maxpred p = 0 -> first_save p = Ok (p, out0).
Proof. intros p H. unfold first_save. rewrite H, andb_false_r. reflexivity. Qed.

Section Predictor.
Variable predict : Z -> Z.

Definition resim_saves (p : p2p) (i mc c : Z) : bool := if ps_sparse p then c =? mc else 0 <? i.

Lemma resim_go_S : forall k i p mc o r,
  resim_go predict (S k) i p mc o = Ok r <->
  exists s1 ins s2 o2,
    synchronized_inputs predict (ps_sync p) (ps_status p) = Ok (s1, ins) /\
    (if resim_saves p i mc (s_current s1)
     then 0 <= s_current s1 /\ s2 = saved s1 /\ o2 = add_req o (RSave (s_current s1)) else s2 = s1 /\ o2 = o) /\
    resim_go predict k (i + 1) (with_sync p (advance_frame s2)) mc (add_req o2 (RAdvance ins)) = Ok r.
Proof.
  intros k i p mc o r. cbn [resim_go].
  assert (Hsave : forall s1 s2 o2,
    (if ps_sparse p then
       (if s_current s1 =? mc then res_bind (save_current_state s1) (fun '(s2, r) => Ok (s2, add_req o r)) else Ok (s1, o))
     else
       (if 0 <? i then res_bind (save_current_state s1) (fun '(s2, r) => Ok (s2, add_req o r)) else Ok (s1, o))) = Ok (s2, o2) <->
    (if resim_saves p i mc (s_current s1)
     then 0 <= s_current s1 /\ s2 = saved s1 /\ o2 = add_req o (RSave (s_current s1)) else s2 = s1 /\ o2 = o)).
  { intros s1 s2 o2.
    assert (Hs : res_bind (save_current_state s1) (fun '(s2, r) => Ok (s2, add_req o r)) = Ok (s2, o2) <->
                 0 <= s_current s1 /\ s2 = saved s1 /\ o2 = add_req o (RSave (s_current s1))).
    { rewrite (save_then_ok _ (fun s2 r => (s2, add_req o r))).
      split; intros (A0 & E); (split; [exact A0|]); [injection E as -> ->; auto|destruct E as (-> & ->); reflexivity]. }
    assert (Hn : Ok (s1, o) = Ok (s2, o2) <-> s2 = s1 /\ o2 = o).
    { split; [intros H; injection H as <- <-; auto|intros (-> & ->); reflexivity]. }
    unfold resim_saves. destruct (ps_sparse p); [destruct (s_current s1 =? mc)|destruct (0 <? i)]; assumption. }
  split.
  - intros H. apply res_bind_ok in H. destruct H as ([s1 ins] & E1 & H).
    apply res_bind_ok in H. destruct H as ([s2 o2] & E2 & H).
    exists s1, ins, s2, o2. split; [exact E1|]. split; [apply Hsave; exact E2|exact H].
  - intros (s1 & ins & s2 & o2 & E1 & E2 & H). rewrite E1. cbn [res_bind].
    apply Hsave in E2. rewrite E2. exact H.
Qed.

(* the loop rule of the re-simulation: [Save current]; Advance, n times *)
Lemma resim_go_rule : forall (mc : Z) (P : Z -> p2p -> pout -> Prop) n i,
  (forall j p o s1 ins s2 o2, i <= j < i + Z.of_nat n -> P j p o ->
     synchronized_inputs predict (ps_sync p) (ps_status p) = Ok (s1, ins) ->
     (if resim_saves p j mc (s_current s1)
      then 0 <= s_current s1 /\ s2 = saved s1 /\ o2 = add_req o (RSave (s_current s1)) else s2 = s1 /\ o2 = o) ->
     P (j + 1) (with_sync p (advance_frame s2)) (add_req o2 (RAdvance ins))) ->
  forall p o p' o', resim_go predict n i p mc o = Ok (p', o') -> P i p o -> P (i + Z.of_nat n) p' o'.
Proof.
  intros mc P. induction n as [|n IH]; intros i Hstep p o p' o' H HP.
  - injection H as <- <-. rewrite Z.add_0_r. exact HP.
  - apply resim_go_S in H. destruct H as (s1 & ins & s2 & o2 & E1 & E2 & H).
    replace (i + Z.of_nat (S n)) with (i + 1 + Z.of_nat n) by lia.
    eapply IH; [|exact H|eapply Hstep; [lia|eassumption..]].
    intros j q oq t1 ins' t2 oq2 Hj. apply Hstep. lia.
Qed.

Definition frame_to_load (p : p2p) (first_incorrect : Z) : Z :=
  if ps_sparse p then s_last_saved (ps_sync p) else first_incorrect.

Lemma adjust_gamestate_ok : forall p fi mc o r,
  adjust_gamestate predict p fi mc o = Ok r <->
  frame_to_load p fi <= fi /\ 0 <= frame_to_load p fi < s_current (ps_sync p) /\
  s_current (ps_sync p) - s_maxpred (ps_sync p) <= frame_to_load p fi /\
  cell_frame (ps_sync p) (frame_to_load p fi) = frame_to_load p fi /\
  resim_go predict (Z.to_nat (s_current (ps_sync p) - frame_to_load p fi)) 0
    (with_sync p (reset_all (with_current (ps_sync p) (frame_to_load p fi)))) mc (add_req o (RLoad (frame_to_load p fi))) = Ok r /\
  s_current (ps_sync (fst r)) = s_current (ps_sync p).
Proof.
  intros p fi mc o r. unfold adjust_gamestate. fold (frame_to_load p fi).
  set (F := frame_to_load p fi). set (c := s_current (ps_sync p)).
  destruct (Z.ltb_spec fi F) as [E0|E0]; [split; [discriminate|]; intros (A0 & _); lia|].
  split.
  - intros H. apply res_bind_ok in H. destruct H as ([s1 rq] & El & H).
    apply load_frame_ok in El. destruct El as (L1 & L2 & L3 & L4). injection L4 as -> ->.
    apply res_bind_ok in H. destruct H as ([p2 o2] & Er & H).
    destruct (Z.eqb_spec (s_current (ps_sync p2)) c) as [Ec|Ec]; cbn [negb] in H; [|discriminate]. injection H as <-.
    repeat (split; [assumption|]). exact Ec.
  - intros (_ & L1 & L2 & L3 & Er & Ec).
    assert (El : load_frame (ps_sync p) F = Ok (with_current (ps_sync p) F, RLoad F)) by (apply load_frame_ok; auto).
    rewrite El. cbn [res_bind]. fold c. rewrite Er. destruct r as [p2 o2]. cbn [res_bind fst] in *.
    fold c in Ec. rewrite Ec, Z.eqb_refl. reflexivity.
Qed.

Lemma check_last_saved_state_ok : forall p last_saved cf o r,
  check_last_saved_state predict p last_saved cf o = Ok r <->
  if s_current (ps_sync p) - last_saved <? ps_maxpred p then r = (p, o) else
    (if s_current (ps_sync p) <=? cf then save_p2p p o else adjust_gamestate predict p last_saved cf o) = Ok r /\
    (cf = NULL \/ s_last_saved (ps_sync (fst r)) = Z.min cf (s_current (ps_sync (fst r)))).
Proof.
  intros p ls cf o r. unfold check_last_saved_state. fold (save_p2p p o).
  destruct (s_current (ps_sync p) - ls <? ps_maxpred p); [split; [intros H; injection H as <-; reflexivity|intros ->; reflexivity]|].
  split.
  - intros H. apply res_bind_ok in H. destruct H as ([p1 o1] & E & H).
    destruct ((cf =? NULL) || (s_last_saved (ps_sync p1) =? Z.min cf (s_current (ps_sync p1)))) eqn:Eb; cbn [negb] in H; [|discriminate].
    injection H as <-. split; [exact E|]. cbn [fst]. lia.
  - intros (E & Hb). rewrite E. destruct r as [p1 o1]. cbn [res_bind fst] in *.
    assert (((cf =? NULL) || (s_last_saved (ps_sync p1) =? Z.min cf (s_current (ps_sync p1)))) = true) as -> by lia.
    reflexivity.
Qed.

(* the rollback, when a misprediction or a disconnect asks for one *)
Definition first_rollback (p : p2p) (cf : Z) (o : pout) : res (p2p * pout) :=
  if check_simulation_consistency (ps_sync p) (ps_disc_frame p) =? NULL then Ok (p, o)
  else res_bind (adjust_gamestate predict p (check_simulation_consistency (ps_sync p) (ps_disc_frame p)) cf o)
         (fun '(p1, o1) => Ok (with_disc_frame p1 NULL, o1)).

Lemma handle_rollback_and_save_eq : forall p cf o,
  handle_rollback_and_save predict p cf o =
  res_bind (first_rollback p cf o) (fun '(p1, o1) =>
    if ps_sparse p1 then check_last_saved_state predict p1 (s_last_saved (ps_sync p1)) cf o1 else save_p2p p1 o1).
Proof. reflexivity. Qed.

Lemma first_rollback_inv : forall p cf o p1 o1, first_rollback p cf o = Ok (p1, o1) ->
  (check_simulation_consistency (ps_sync p) (ps_disc_frame p) = NULL /\ p1 = p /\ o1 = o) \/
  (check_simulation_consistency (ps_sync p) (ps_disc_frame p) <> NULL /\
   exists p0, adjust_gamestate predict p (check_simulation_consistency (ps_sync p) (ps_disc_frame p)) cf o = Ok (p0, o1) /\
              p1 = with_disc_frame p0 NULL).
Proof.
  intros p cf o p1 o1 H. unfold first_rollback in H.
  destruct (Z.eqb_spec (check_simulation_consistency (ps_sync p) (ps_disc_frame p)) NULL) as [E|E].
  - injection H as <- <-. left. auto.
  - apply res_bind_ok in H. destruct H as ([p0 o0] & Ea & H). injection H as <- <-. right. split; [exact E|]. exists p0. auto.
Qed.

Definition frames_ahead (s : sync) : Z :=
  if s_last_confirmed s =? NULL then s_current s else s_current s - s_last_confirmed s.

(* the end of advance_rollback_frame: inside the prediction window the next frame is simulated *)
Definition advance_if_allowed (p : p2p) (o : pout) : res (p2p * pout) :=
  if frames_ahead (ps_sync p) <? ps_maxpred p then
    res_bind (synchronized_inputs predict (ps_sync p) (ps_status p)) (fun '(s5, ins) =>
      Ok (with_pending (with_sync p (advance_frame s5)) [], add_req o (RAdvance ins)))
  else Ok (p, o).

Lemma advance_if_allowed_inv : forall p o p' o', advance_if_allowed p o = Ok (p', o') ->
  if frames_ahead (ps_sync p) <? ps_maxpred p
  then exists s5 ins, synchronized_inputs predict (ps_sync p) (ps_status p) = Ok (s5, ins) /\
         p' = with_pending (with_sync p (advance_frame s5)) [] /\ o' = add_req o (RAdvance ins)
  else p' = p /\ o' = o.
Proof.
  intros p o p' o' H. unfold advance_if_allowed in H. destruct (frames_ahead (ps_sync p) <? ps_maxpred p).
  - apply res_bind_ok in H. destruct H as ([s5 ins] & E5 & H). injection H as <- <-. exists s5, ins. auto.
  - injection H as <- <-. auto.
Qed.

Lemma advance_rollback_frame_inv : forall p o p' o', advance_rollback_frame predict p o = Ok (p', o') ->
  exists cf p1 o1 p2 o2 s3 p4 o4,
    confirmed_frame p = Ok cf /\ handle_rollback_and_save predict p cf o = Ok (p1, o1) /\
    send_confirmed_inputs_to_spectators p1 cf o1 = Ok (p2, o2) /\
    set_last_confirmed_frame (ps_sync p2) cf (ps_sparse p2) = Ok s3 /\
    register_local_inputs (with_sync p2 s3) o2 = Ok (p4, o4) /\ advance_if_allowed p4 o4 = Ok (p', o').
Proof.
  intros p o p' o' H. unfold advance_rollback_frame in H.
  apply res_bind_ok in H. destruct H as (cf & Ecf & H).
  apply res_bind_ok in H. destruct H as ([p1 o1] & E1 & H).
  apply res_bind_ok in H. destruct H as ([p2 o2] & E2 & H).
  apply res_bind_ok in H. destruct H as (s3 & E3 & H).
  apply res_bind_ok in H. destruct H as ([p4 o4] & E4 & H).
  exists cf, p1, o1, p2, o2, s3, p4, o4. auto 8.
Qed.

Lemma advance_rollback_frame_ok : forall p o cf p1 o1 p2 o2 s3 p4 o4 r,
  confirmed_frame p = Ok cf -> handle_rollback_and_save predict p cf o = Ok (p1, o1) ->
  send_confirmed_inputs_to_spectators p1 cf o1 = Ok (p2, o2) ->
  set_last_confirmed_frame (ps_sync p2) cf (ps_sparse p2) = Ok s3 ->
  register_local_inputs (with_sync p2 s3) o2 = Ok (p4, o4) -> advance_if_allowed p4 o4 = r ->
  advance_rollback_frame predict p o = r.
Proof.
  intros p o cf p1 o1 p2 o2 s3 p4 o4 r E0 E1 E2 E3 E4 E5. unfold advance_rollback_frame.
  rewrite E0. cbn [res_bind]. rewrite E1. cbn [res_bind]. rewrite E2. cbn [res_bind]. rewrite E3. cbn [res_bind].
  rewrite E4. exact E5.
Qed.

Lemma advance_lockstep_frame_inv : forall p o p' o', advance_lockstep_frame p o = Ok (p', o') ->
  exists p1 o1 cf p2 o2 cf2 p3 s4,
    register_local_inputs p o = Ok (p1, o1) /\ confirmed_frame p1 = Ok cf /\
    (if s_current (ps_sync p1) <=? cf
     then exists pis, confirmed_inputs (ps_sync p1) (s_current (ps_sync p1)) (ps_status p1) = Ok pis /\
            p2 = with_pending (with_sync p1 (advance_frame (ps_sync p1))) [] /\
            o2 = add_req o1 (RAdvance (map (fun pi => if pi_frame pi =? NULL then (pi_val pi, Disconnected) else (pi_val pi, Confirmed)) pis))
     else p2 = p1 /\ o2 = o1) /\
    confirmed_frame p2 = Ok cf2 /\
    send_confirmed_inputs_to_spectators p2 (Z.min cf2 (s_current (ps_sync p2) - 1)) o2 = Ok (p3, o') /\
    set_last_confirmed_frame (ps_sync p3) (Z.min cf2 (s_current (ps_sync p2) - 1)) (ps_sparse p3) = Ok s4 /\
    p' = with_sync p3 s4.
Proof.
  intros p o p' o' H. unfold advance_lockstep_frame in H.
  apply res_bind_ok in H. destruct H as ([p1 o1] & E1 & H).
  apply res_bind_ok in H. destruct H as (cf & Ecf & H).
  apply res_bind_ok in H. destruct H as ([p2 o2] & E2 & H).
  apply res_bind_ok in H. destruct H as (cf2 & Ecf2 & H).
  apply res_bind_ok in H. destruct H as ([p3 o3] & E3 & H).
  apply res_bind_ok in H. destruct H as (s4 & E4 & H). injection H as <- <-.
  exists p1, o1, cf, p2, o2, cf2, p3, s4. split; [exact E1|]. split; [exact Ecf|].
  split; [|auto]. destruct (s_current (ps_sync p1) <=? cf).
  - apply res_bind_ok in E2. destruct E2 as (pis & Ep & E2). injection E2 as <- <-. exists pis. auto.
  - injection E2 as <- <-. auto.
Qed.

(* the middle of advance_lockstep_frame: the current frame is simulated once every player's input for it is held *)
Definition lockstep_simulate (p : p2p) (cf : Z) (o : pout) : res (p2p * pout) :=
  if s_current (ps_sync p) <=? cf
  then res_bind (confirmed_inputs (ps_sync p) (s_current (ps_sync p)) (ps_status p)) (fun pis =>
         Ok (with_pending (with_sync p (advance_frame (ps_sync p))) [],
             add_req o (RAdvance (map (fun pi => if pi_frame pi =? NULL then (pi_val pi, Disconnected)
                                                 else (pi_val pi, Confirmed)) pis))))
  else Ok (p, o).

Lemma advance_lockstep_frame_ok : forall p o p1 o1 cf p2 o2 cf2 p3 o3 s4,
  register_local_inputs p o = Ok (p1, o1) -> confirmed_frame p1 = Ok cf -> lockstep_simulate p1 cf o1 = Ok (p2, o2) ->
  confirmed_frame p2 = Ok cf2 ->
  send_confirmed_inputs_to_spectators p2 (Z.min cf2 (s_current (ps_sync p2) - 1)) o2 = Ok (p3, o3) ->
  set_last_confirmed_frame (ps_sync p3) (Z.min cf2 (s_current (ps_sync p2) - 1)) (ps_sparse p3) = Ok s4 ->
  advance_lockstep_frame p o = Ok (with_sync p3 s4, o3).
Proof.
  intros p o p1 o1 cf p2 o2 cf2 p3 o3 s4 E1 E2 E3 E4 E5 E6. unfold advance_lockstep_frame.
  rewrite E1. cbn [res_bind]. rewrite E2. cbn [res_bind]. unfold lockstep_simulate in E3. rewrite E3. cbn [res_bind].
  rewrite E4. cbn [res_bind]. rewrite E5. cbn [res_bind]. rewrite E6. reflexivity.
Qed.

Lemma advance_inv : forall p p' o r, advance predict p = Ok (p', o, r) ->
  (r <> AOk /\ p' = p /\ o = out0) \/
  (r = AOk /\ ps_running p = true /\ all_pending p = true /\ exists p1 o1 p2,
     first_save p = Ok (p1, o1) /\ update_player_disconnects p1 = Ok p2 /\
     (if ps_maxpred p =? 0 then advance_lockstep_frame p2 o1 else advance_rollback_frame predict p2 o1) = Ok (p', o)).
Proof.
  intros p p' o r H. unfold advance in H. fold (all_pending p) in H.
  destruct (ps_running p); cbn [negb] in H; [|injection H as <- <- <-; left; repeat split; discriminate].
  destruct (all_pending p); cbn [negb] in H; [|injection H as <- <- <-; left; repeat split; discriminate].
  apply res_bind_ok in H. destruct H as ([p1 o1] & E1 & H).
  apply res_bind_ok in H. destruct H as (p2 & E2 & H).
  apply res_bind_ok in H. destruct H as ([p3 o3] & E3 & H). injection H as <- <- <-.
  right. repeat (split; [reflexivity|]). exists p1, o1, p2. auto.
Qed.

Lemma advance_ok : forall p p1 o1 p2 p' o,
  ps_running p = true -> all_pending p = true ->
  first_save p = Ok (p1, o1) -> update_player_disconnects p1 = Ok p2 ->
  (if ps_maxpred p =? 0 then advance_lockstep_frame p2 o1 else advance_rollback_frame predict p2 o1) = Ok (p', o) ->
  advance predict p = Ok (p', o, AOk).
Proof.
  intros p p1 o1 p2 p' o Hr Hp E1 E2 E3. unfold advance. fold (all_pending p). rewrite Hr, Hp. cbn [negb].
  unfold first_save, save_p2p in E1. rewrite E1. cbn [res_bind]. rewrite E2. cbn [res_bind]. rewrite E3. reflexivity.
Qed.

Lemma advance_not_pending : forall p,
  ps_running p = true -> all_pending p = false -> advance predict p = Ok (p, out0, AInvalidRequest).
Proof. intros p Hr Hp. unfold advance. fold (all_pending p). rewrite Hr, Hp. reflexivity. Qed.

Lemma resim_go_S_inv : forall n i p mc o p' o',
  resim_go predict (S n) i p mc o = Ok (p', o') ->
  exists qs' ins s2 o2 SV,
    sync_inputs_go predict (s_current (ps_sync p)) (s_queues (ps_sync p)) (ps_status p) = Ok (qs', ins) /\
    s_queues s2 = qs' /\ s_current s2 = s_current (ps_sync p) /\ same_sends o o2 /\
    o_requests o2 = o_requests o ++ SV /\ (SV = [] \/ SV = [RSave (s_current (ps_sync p))]) /\
    resim_go predict n (i + 1) (with_sync p (advance_frame s2)) mc (add_req o2 (RAdvance ins)) = Ok (p', o').
Proof.
  intros n i p mc o p' o' E. apply resim_go_S in E. destruct E as (s1 & ins & s2 & o2 & E1 & Hsv & E').
  apply synchronized_inputs_ok in E1. destruct E1 as (qs' & E0 & ->). cbn [with_queues s_current] in Hsv.
  exists qs', ins, s2, o2. destruct (resim_saves _ _ _ _).
  - destruct Hsv as (_ & -> & ->). exists [RSave (s_current (ps_sync p))]. repeat split; auto.
  - destruct Hsv as (-> & ->). exists []. rewrite app_nil_r. repeat split; auto.
Qed.

Lemma resim_sends : forall n i p mc o p' o', resim_go predict n i p mc o = Ok (p', o') -> same_sends o o'.
Proof.
  induction n as [|n IH]; intros i p mc o p' o' E.
  - injection E as <- <-. apply same_sends_refl.
  - destruct (resim_go_S_inv _ _ _ _ _ _ _ E) as (qs' & ins & s2 & o2 & SV & _ & _ & _ & Hs & _ & _ & E').
    exact (same_sends_trans _ _ _ Hs (IH _ _ _ _ _ _ E')).
Qed.

Lemma adjust_sends : forall p fi mc o p' o', adjust_gamestate predict p fi mc o = Ok (p', o') -> same_sends o o'.
Proof.
  intros p fi mc o p' o' E. apply adjust_gamestate_ok in E. destruct E as (_ & _ & _ & _ & Er & _).
  exact (resim_sends _ _ _ _ _ _ _ Er).
Qed.

Lemma save_sends : forall p o p' o', save_p2p p o = Ok (p', o') -> same_sends o o'.
Proof. intros p o p' o' E. apply save_p2p_ok in E. destruct E as (_ & _ & ->). split; reflexivity. Qed.

Lemma handle_rollback_sends : forall p cf o p1 o1,
  handle_rollback_and_save predict p cf o = Ok (p1, o1) -> same_sends o o1.
Proof.
  intros p cf o p1 o1 E. rewrite handle_rollback_and_save_eq in E.
  apply res_bind_ok in E. destruct E as ([p2 o2] & E2 & E).
  apply (same_sends_trans o o2 o1).
  - apply first_rollback_inv in E2. destruct E2 as [(_ & _ & ->)|(_ & p0 & Ea & _)]; [apply same_sends_refl|].
    exact (adjust_sends _ _ _ _ _ _ Ea).
  - destruct (ps_sparse p2); [|exact (save_sends _ _ _ _ E)].
    apply check_last_saved_state_ok in E. destruct (_ <? ps_maxpred p2); [injection E as _ <-; apply same_sends_refl|].
    destruct E as (E & _). destruct (_ <=? cf); [exact (save_sends _ _ _ _ E)|exact (adjust_sends _ _ _ _ _ _ E)].
Qed.

End Predictor.
