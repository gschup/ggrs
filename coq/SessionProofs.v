(* The session core against its own input queues and against the user's game, for every state and every
   operation sequence (disconnects, gossip, delay changes and spectators included).  First the per-queue
   invariant QI and what reading, confirming and adding inputs do to it.  Then: as long as no modelled assert
   fires, the request lists are executable and frame-consistent (C02) and speculation and rollbacks stay inside
   the prediction window (C04); the invariant is JI (JR for rollback mode in either saving mode), proved call
   by call along advance_frame.  Last, what a re-simulation does to the queues (rolled); SessionProgress.v
   builds the no-assert-fires theorems on that. *)
From GGRS Require Import Base Consts Queue QueueProofs QueueTheorems Sync P2P Session.
From GGRS Require Export SessionModel ModelLists.
From GGRS Require Import LiaSetup.
Open Scope Z_scope.

(* c = the sync layer's current frame, L = its last confirmed frame; hist = every input the queue was given, low =
   the oldest frame its ring still holds.
   qi_p1: a prediction in force is for the first frame not held.  qi_p2: as long as none of its guesses has been
   refuted, the last read was of a frame not held.  qi_p4: a recorded misprediction is of a held frame after L and
   before c.  qi_req: every read is of the current frame, which then advances.  qi_low: nothing from the last
   confirmed frame on has been discarded, and (second half) everything below L - 1 has, which bounds the ring. *)
Record QI (c L : Z) (q : queue) (hist : list Z) (low : Z) : Prop := {
  qi_ring : RInv q hist low;
  qi_p1 : pi_frame (q_pred q) = NULL \/ pi_frame (q_pred q) = hlen hist;
  qi_p2 : pi_frame (q_pred q) <> NULL -> q_first_incorrect q = NULL -> hlen hist <= q_last_requested q;
  qi_p4 : q_first_incorrect q <> NULL ->
          pi_frame (q_pred q) <> NULL /\ L < q_first_incorrect q < hlen hist /\ q_first_incorrect q <= c - 1;
  qi_req : q_last_requested q = NULL \/ q_last_requested q = c - 1;
  qi_low : low <= Z.max 0 L /\ (0 < L -> L - 1 <= low);
  qi_conf : L <= hlen hist - 1;
}.

Lemma qi_reset : forall c c' L q hist low, QI c L q hist low -> QI c' L (reset_prediction q) hist low.
Proof.
  intros c c' L q hist low [I P1 P2 P4 Rq Lw Cf].
  constructor; cbn [reset_prediction q_pred q_first_incorrect q_last_requested pi_frame].
  - apply reset_ok. exact I.
  - left. reflexivity.
  - intros A. congruence.
  - intros A. congruence.
  - left. reflexivity.
  - exact Lw.
  - exact Cf.
Qed.

(* moving the last confirmed frame up to L' and discarding below L' - 1 *)
Lemma qi_confirm : forall c L L' q hist low,
  QI c L q hist low -> q_first_incorrect q = NULL -> L <= L' -> L' <= hlen hist - 1 -> L' <= c ->
  exists low', QI c L' (if 0 <? L' then discard_confirmed_frames q (L' - 1) else q) hist low' /\
    q_first_incorrect (if 0 <? L' then discard_confirmed_frames q (L' - 1) else q) = NULL /\
    q_delay (if 0 <? L' then discard_confirmed_frames q (L' - 1) else q) = q_delay q /\
    q_last_user (if 0 <? L' then discard_confirmed_frames q (L' - 1) else q) = q_last_user q /\
    q_pred (if 0 <? L' then discard_confirmed_frames q (L' - 1) else q) = q_pred q.
Proof.
  intros c L L' q hist low [I P1 P2 P4 Rq [Lw1 Lw2] Cf] Hfi HL HL' HLc.
  destruct (Z.ltb_spec 0 L') as [Hpos|Hnp].
  - destruct (discard_ok q hist low (L' - 1) I ltac:(lia)) as (I' & D' & U' & R' & F' & P').
    exists (discard_low q low (L' - 1)). split; [|repeat split; congruence].
    constructor; rewrite ?P', ?F', ?R'.
    + exact I'.
    + exact P1.
    + exact P2.
    + intro A. congruence.
    + exact Rq.
    + unfold discard_low. split.
      * destruct (q_last_requested q =? NULL); lia.
      * intros _. destruct Rq as [Rq|Rq]; rewrite Rq.
        -- cbn. lia.
        -- destruct (Z.eqb_spec (c - 1) NULL); lia.
    + exact HL'.
  - exists low. split; [|split; [exact Hfi|repeat split; reflexivity]].
    constructor.
    + exact I.
    + exact P1.
    + exact P2.
    + intro A. congruence.
    + exact Rq.
    + split; [lia|]. intros A. lia.
    + exact HL'.
Qed.

(* a read of frame c sets last_requested to c and, when it starts predicting, puts the prediction
   slot at the end of the history *)
Lemma qi_requested : forall c L q hist low q',
  QI c L q hist low -> RInv q' hist low -> q_first_incorrect q' = NULL -> q_last_requested q' = c ->
  (pi_frame (q_pred q') = NULL \/ (pi_frame (q_pred q') = hlen hist /\ hlen hist <= c)) ->
  QI (c + 1) L q' hist low.
Proof.
  intros c L q hist low q' [I P1 P2 P4 Rq Lw Cf] I' F' R' P'.
  constructor; rewrite ?R', ?F'.
  - exact I'.
  - destruct P' as [P'|(P' & _)]; [left|right]; exact P'.
  - intros A _. destruct P' as [P'|(_ & P')]; [contradiction|exact P'].
  - intros A. congruence.
  - right. lia.
  - exact Lw.
  - exact Cf.
Qed.

Section WithPredictor.
Variable predict : Z -> Z.

Lemma qi_input_cases : forall c L q hist low,
  QI c L q hist low -> q_first_incorrect q = NULL -> 0 <= c -> L <= c ->
  (pi_frame (q_pred q) = NULL /\ c < hlen hist /\
   input predict q c = Ok (set_last_requested q c, (hval hist c, Confirmed))) \/
  (pi_frame (q_pred q) = NULL /\ hlen hist <= c /\
   input predict q c = Ok (set_requested_pred q c (mkpi (hlen hist) (predval predict hist)), (predval predict hist, Predicted))) \/
  (pi_frame (q_pred q) = hlen hist /\ hlen hist <= c /\
   input predict q c = Ok (set_last_requested q c, (pi_val (q_pred q), Predicted))).
Proof.
  intros c L q hist low [I P1 P2 P4 Rq [Lw1 Lw2] Cf] Hfi Hc HL.
  destruct (ri_low _ _ _ I) as (L0 & L1 & L2). pose proof (hlen_nonneg hist) as Hnn.
  destruct P1 as [P1|P1].
  - destruct (Z.lt_ge_cases c (hlen hist)) as [Hlt|Hge]; [left|right; left]; (split; [exact P1|]); (split; [assumption|]).
    + apply (input_confirmed predict q hist low c I Hfi P1). lia.
    + exact (input_predict_start predict q hist low c I Hfi P1 Hge Hc).
  - right. right. assert (Hact : pi_frame (q_pred q) <> NULL) by (unfold NULL; lia). pose proof (P2 Hact Hfi) as Pl.
    assert (Hge : hlen hist <= c) by (destruct Rq as [Rq|Rq]; unfold NULL in *; lia).
    split; [exact P1|]. split; [exact Hge|].
    apply (input_predicting predict q hist low c I Hfi P1). destruct (hlen hist =? 0); unfold NULL; lia.
Qed.

Lemma qi_input : forall c L q hist low,
  QI c L q hist low -> q_first_incorrect q = NULL -> 0 <= c -> L <= c ->
  exists q' v st, input predict q c = Ok (q', (v, st)) /\ QI (c + 1) L q' hist low /\
                  q_first_incorrect q' = NULL /\ (st = Confirmed \/ st = Predicted) /\
                  q_delay q' = q_delay q /\ q_last_user q' = q_last_user q /\
                  (c < hlen hist -> pi_frame (q_pred q) = NULL -> pi_frame (q_pred q') = NULL).
Proof.
  intros c L q hist low HQ Hfi Hc HL. pose proof (qi_ring _ _ _ _ _ HQ) as I.
  assert (I' : forall f pr, RInv (set_requested_pred q f pr) hist low) by (intros; eapply RInv_ext; [exact I|reflexivity..]).
  destruct (qi_input_cases c L q hist low HQ Hfi Hc HL) as [(Hp & Hlt & E)|[(Hp & Hge & E)|(Hp & Hge & E)]];
    rewrite E; eexists; eexists; eexists; (split; [reflexivity|]).
  - split; [|repeat split; [exact Hfi|left; reflexivity|intros _ A; exact A]].
    apply (qi_requested c L q hist low); [exact HQ|apply (I' c (q_pred q))|exact Hfi|reflexivity|left; exact Hp].
  - split; [|repeat split; [exact Hfi|right; reflexivity|intros A; lia]].
    apply (qi_requested c L q hist low); [exact HQ|apply I'|exact Hfi|reflexivity|right; split; [reflexivity|exact Hge]].
  - split; [|repeat split; [exact Hfi|right; reflexivity|intros A; lia]].
    apply (qi_requested c L q hist low); [exact HQ|apply (I' c (q_pred q))|exact Hfi|reflexivity|right; split; [exact Hp|exact Hge]].
Qed.

Definition ghost := (list Z * Z)%type.
Definition QsI (c L : Z) (qs : list queue) (gs : list ghost) : Prop :=
  Forall2 (fun q g => QI c L q (fst g) (snd g)) qs gs.
Definition all_clean (qs : list queue) : Prop := Forall (fun q => q_first_incorrect q = NULL) qs.
Definition same_user (qs qs' : list queue) : Prop :=
  Forall2 (fun q q' => q_delay q' = q_delay q /\ q_last_user q' = q_last_user q) qs qs'.
Definition connected (st : list cstat) : Prop := Forall (fun s => cs_disc s = false) st.
(* the queues qs' have been read up to frame c - 1: a prediction slot that was idle is still idle if the
   history reaches that far *)
Definition idle_kept (c : Z) (qs : list queue) (gs : list ghost) (qs' : list queue) : Prop :=
  forall h q gh q', nth_error qs h = Some q -> nth_error gs h = Some gh -> nth_error qs' h = Some q' ->
    c <= hlen (fst gh) -> pi_frame (q_pred q) = NULL -> pi_frame (q_pred q') = NULL.

Lemma idle_kept_refl : forall c qs gs, idle_kept c qs gs qs.
Proof. intros c qs gs h q gh q' A _ B _ Hn. rewrite A in B. injection B as <-. exact Hn. Qed.

Lemma sync_inputs_go_ok : forall st qs gs c L,
  QsI c L qs gs -> all_clean qs -> length st = length qs -> connected st -> 0 <= c -> L <= c ->
  exists qs' ins, sync_inputs_go predict c qs st = Ok (qs', ins) /\ QsI (c + 1) L qs' gs /\
    all_clean qs' /\ length ins = length qs /\
    Forall (fun i => snd i = Confirmed \/ snd i = Predicted) ins /\ same_user qs qs' /\ idle_kept (c + 1) qs gs qs'.
Proof.
  induction st as [|s st IH]; intros qs gs c L HQ Hcl Hlen Hcon Hc HL.
  - destruct qs; [|discriminate]. inversion HQ; subst.
    exists [], []. cbn. repeat split; try constructor. intros [|h] ? ? ? A; discriminate A.
  - destruct qs as [|q qs]; [discriminate|]. inversion HQ as [|? g ? gs' Hq HQ']; subst.
    inversion Hcl as [|? ? Hq0 Hcl']; subst. inversion Hcon as [|? ? Hs Hcon']; subst.
    cbn [sync_inputs_go]. rewrite Hs. cbn [andb].
    destruct (qi_input c L q (fst g) (snd g) Hq Hq0 Hc HL) as (q' & v & stt & E & HQ1 & Hfi1 & Hst & Hd & Hu & Hkn).
    rewrite E. cbn [res_bind].
    destruct (IH qs gs' c L HQ' Hcl' ltac:(cbn in Hlen; lia) Hcon' Hc HL) as (qs' & ins & E' & HQ2 & Hcl2 & Hl2 & Hst2 & Hsu & Hkn2).
    rewrite E'. cbn [res_bind].
    exists (q' :: qs'), ((v, stt) :: ins). split; [reflexivity|].
    repeat split.
    + constructor; assumption.
    + constructor; assumption.
    + cbn. lia.
    + constructor; [exact Hst|exact Hst2].
    + constructor; [split; assumption|exact Hsu].
    + intros [|h] q0 gh q0' A B C; cbn [nth_error] in A, B, C.
      * injection A as <-. injection B as <-. injection C as <-. intros D. apply Hkn. lia.
      * exact (Hkn2 h q0 gh q0' A B C).
Qed.

End WithPredictor.

Lemma Forall2_len {A B} (R : A -> B -> Prop) : forall l1 l2, Forall2 R l1 l2 -> length l1 = length l2.
Proof. intros l1 l2 H. induction H; cbn; congruence. Qed.

Lemma QsI_length : forall c L qs gs, QsI c L qs gs -> length qs = length gs.
Proof. intros c L qs gs. apply Forall2_len. Qed.

Lemma Forall2_nth {A B} (R : A -> B -> Prop) : forall l1 l2 i a b,
  Forall2 R l1 l2 -> nth_error l1 i = Some a -> nth_error l2 i = Some b -> R a b.
Proof.
  induction l1 as [|x l1 IH]; intros l2 i a b H Ha Hb; inversion H; subst; destruct i; cbn in *; try discriminate.
  - inversion Ha; inversion Hb; subst. assumption.
  - eapply IH; eassumption.
Qed.

Lemma QsI_nth : forall c L qs gs h gh, QsI c L qs gs -> nth_error gs h = Some gh ->
  exists q, nth_error qs h = Some q /\ QI c L q (fst gh) (snd gh).
Proof.
  intros c L qs gs h gh H Hg. destruct (nth_error qs h) as [q|] eqn:Eq.
  - exists q. split; [reflexivity|]. exact (Forall2_nth _ _ _ _ _ _ H Eq Hg).
  - apply nth_error_None in Eq. rewrite (QsI_length _ _ _ _ H) in Eq.
    assert (nth_error gs h <> None) as X by congruence. apply nth_error_Some in X. lia.
Qed.

Lemma same_user_refl : forall qs, same_user qs qs.
Proof. induction qs; constructor; auto. Qed.
Lemma same_user_trans : forall a b c, same_user a b -> same_user b c -> same_user a c.
Proof.
  induction a as [|x a IH]; intros b c H1 H2; inversion H1; subst; inversion H2; subst; constructor.
  - destruct H3, H4. split; congruence.
  - eapply IH; eassumption.
Qed.

(* The free game: its state after n frames is the list of the n input vectors it was advanced with.
   A cell holds (frame, state) of the save that wrote it.  Executing a request list fails when a
   Save names another frame than the game's, or a Load names a frame that is not earlier, or whose
   cell does not hold the state saved for that frame on the current timeline. *)
Definition frame_inputs := list (Z * istatus).
Definition ghist := list frame_inputs.
Record game := mkg { g_hist : ghist; g_cells : list (Z * ghist) }.

Definition status_eqb (a b : istatus) : bool :=
  match a, b with Confirmed, Confirmed | Predicted, Predicted | Disconnected, Disconnected => true | _, _ => false end.
Fixpoint fi_eqb (a b : frame_inputs) : bool :=
  match a, b with
  | [], [] => true
  | (v, s) :: a', (v', s') :: b' => (v =? v') && status_eqb s s' && fi_eqb a' b'
  | _, _ => false
  end.
Fixpoint gh_eqb (a b : ghist) : bool :=
  match a, b with
  | [], [] => true
  | x :: a', y :: b' => fi_eqb x y && gh_eqb a' b'
  | _, _ => false
  end.

Definition gframe (g : game) : Z := Z.of_nat (length (g_hist g)).

Definition exec_req (w : Z) (g : game) (r : request) : option game :=
  match r with
  | RSave f =>
      if f =? gframe g then Some (mkg (g_hist g) (updz (g_cells g) (Z.to_nat (f mod (w + 1))) (f, g_hist g))) else None
  | RLoad f =>
      let '(cf, ch) := nth (Z.to_nat (f mod (w + 1))) (g_cells g) (NULL, []) in
      if (0 <=? f) && (f <? gframe g) && (cf =? f) && gh_eqb ch (firstn (Z.to_nat f) (g_hist g))
      then Some (mkg ch (g_cells g)) else None
  | RAdvance ins => Some (mkg (g_hist g ++ [ins]) (g_cells g))
  end.

Fixpoint exec (w : Z) (g : game) (rs : list request) : option game :=
  match rs with
  | [] => Some g
  | r :: rest => match exec_req w g r with Some g' => exec w g' rest | None => None end
  end.

Definition game0 (w : Z) : game := mkg [] (repeat (NULL, []) (Z.to_nat (w + 1))).

Lemma status_eqb_refl : forall s, status_eqb s s = true.
Proof. destruct s; reflexivity. Qed.
Lemma fi_eqb_refl : forall a, fi_eqb a a = true.
Proof. induction a as [|[v s] a IH]; cbn; [reflexivity|]. rewrite Z.eqb_refl, status_eqb_refl, IH. reflexivity. Qed.
Lemma gh_eqb_refl : forall a, gh_eqb a a = true.
Proof. induction a as [|x a IH]; cbn; [reflexivity|]. rewrite fi_eqb_refl, IH. reflexivity. Qed.

Lemma exec_app : forall w rs1 rs2 g, exec w g (rs1 ++ rs2) = match exec w g rs1 with Some g' => exec w g' rs2 | None => None end.
Proof.
  induction rs1 as [|r rs1 IH]; intros rs2 g; cbn [app exec]; [reflexivity|].
  destruct (exec_req w g r); [apply IH|reflexivity].
Qed.

Definition advanced (g : game) (ins : frame_inputs) : game := mkg (g_hist g ++ [ins]) (g_cells g).
Lemma gframe_advanced : forall g ins, gframe (advanced g ins) = gframe g + 1.
Proof. intros g ins. unfold gframe, advanced. cbn [g_hist]. rewrite app_length. cbn [length]. lia. Qed.

(* the cell of frame f holds f in the sync layer's view, and in the game's view the state the game
   has for frame f on its current timeline *)
Definition cell_ok (w : Z) (s : sync) (g : game) (f : Z) : Prop :=
  cell_frame s f = f /\
  nth (Z.to_nat (f mod (w + 1))) (g_cells g) (NULL, []) = (f, firstn (Z.to_nat f) (g_hist g)).
Definition cells_wf (w : Z) (s : sync) (g : game) : Prop :=
  s_maxpred s = w /\ Z.of_nat (length (s_cells s)) = w + 1 /\ Z.of_nat (length (g_cells g)) = w + 1.

Definition CellsI (w lo hi : Z) (s : sync) (g : game) : Prop :=
  s_maxpred s = w /\ Z.of_nat (length (s_cells s)) = w + 1 /\ Z.of_nat (length (g_cells g)) = w + 1 /\
  forall f, lo <= f <= hi ->
    cell_frame s f = f /\ nth (Z.to_nat (f mod (w + 1))) (g_cells g) (NULL, []) = (f, firstn (Z.to_nat f) (g_hist g)).

Definition cells_same (s s' : sync) : Prop := s_maxpred s' = s_maxpred s /\ s_cells s' = s_cells s /\ s_last_saved s' = s_last_saved s.

(* lia is kept from seeing the mod terms: it would open each of them into its division equations *)
Lemma slot_in_range : forall w c n, 0 <= w -> Z.of_nat n = w + 1 -> (Z.to_nat (c mod (w + 1)) < n)%nat.
Proof.
  intros w c n Hw Hn. pose proof (Z.mod_pos_bound c (w + 1) ltac:(lia)) as H.
  set (a := c mod (w + 1)) in *. clearbody a. lia.
Qed.

(* the frames of one window occupy different cells *)
Lemma slots_differ : forall w f c, 0 <= w -> c - w <= f <= c -> f <> c -> Z.to_nat (c mod (w + 1)) <> Z.to_nat (f mod (w + 1)).
Proof.
  intros w f c Hw Hf Hne E. apply Hne. apply (mod_inj_near (w + 1) f c); [lia|lia|].
  pose proof (Z.mod_pos_bound c (w + 1) ltac:(lia)) as Hc. pose proof (Z.mod_pos_bound f (w + 1) ltac:(lia)) as Hf'.
  set (a := c mod (w + 1)) in *. set (b := f mod (w + 1)) in *. clearbody a b. lia.
Qed.

Lemma cell_ok_same : forall w s s' g f, cell_ok w s g f -> cells_same s s' -> cell_ok w s' g f.
Proof.
  intros w s s' g f (A & B) (E & F & _). split; [|exact B].
  unfold cell_frame, cell_pos in *. rewrite E, F. exact A.
Qed.

Definition game_saved (w : Z) (g : game) : game :=
  mkg (g_hist g) (updz (g_cells g) (Z.to_nat (gframe g mod (w + 1))) (gframe g, g_hist g)).

Lemma exec_save : forall w g, exec_req w g (RSave (gframe g)) = Some (game_saved w g).
Proof. intros w g. unfold exec_req. rewrite Z.eqb_refl. reflexivity. Qed.

Lemma cell_ok_saved : forall w s g f,
  cells_wf w s g -> 0 <= w -> gframe g = s_current s ->
  f = s_current s \/ (cell_ok w s g f /\ s_current s - w <= f <= s_current s) ->
  cell_ok w (saved s) (game_saved w g) f.
Proof.
  intros w s g f (Hmp & Hls & Hlg) Hw Hgf Hf. unfold cell_ok, game_saved, saved, cell_frame, cell_pos.
  cbn [s_maxpred s_cells g_cells g_hist]. rewrite Hmp, Hgf. set (c := s_current s) in *.
  destruct (Z.eq_dec f c) as [->|Hne].
  - rewrite !nth_updz_same by (apply slot_in_range; assumption). split; [reflexivity|]. f_equal.
    unfold gframe in Hgf. rewrite <- Hgf, Nat2Z.id. symmetry. apply firstn_all.
  - destruct Hf as [Hf|((A & B) & Hwin)]; [contradiction|].
    pose proof (slots_differ w f c Hw Hwin Hne) as Hsl.
    rewrite !nth_updz_other by exact Hsl. unfold cell_frame, cell_pos in A. rewrite Hmp in A. split; assumption.
Qed.

Lemma cell_ok_advanced : forall w s g f ins, cell_ok w s g f -> f <= gframe g -> cell_ok w (advance_frame s) (advanced g ins) f.
Proof.
  intros w s g f ins (A & B) Hf. split; [exact A|]. cbn [advanced g_cells g_hist]. rewrite B. f_equal.
  unfold gframe in Hf. rewrite firstn_app. replace (Z.to_nat f - length (g_hist g))%nat with 0%nat by lia.
  cbn [firstn]. symmetry. apply app_nil_r.
Qed.

Definition game_loaded (g : game) (f : Z) : game := mkg (firstn (Z.to_nat f) (g_hist g)) (g_cells g).

Lemma exec_load : forall w s g f, cell_ok w s g f -> 0 <= f < gframe g -> exec_req w g (RLoad f) = Some (game_loaded g f).
Proof.
  intros w s g f (_ & B) Hf. unfold exec_req. rewrite B, Z.eqb_refl, gh_eqb_refl.
  assert ((0 <=? f) && (f <? gframe g) = true) as -> by lia. reflexivity.
Qed.

Lemma gframe_loaded : forall g f, 0 <= f <= gframe g -> gframe (game_loaded g f) = f.
Proof. intros g f H. unfold gframe, game_loaded in *. cbn [g_hist]. rewrite firstn_length. lia. Qed.

Lemma cell_ok_loaded : forall w s g f f0, cell_ok w s g f0 -> f0 <= f -> cell_ok w (with_current s f) (game_loaded g f) f0.
Proof.
  intros w s g f f0 (A & B) Hf. split; [exact A|]. cbn [game_loaded g_cells g_hist]. rewrite B. f_equal.
  rewrite firstn_firstn. f_equal. lia.
Qed.

(* which saved states a rollback may load: with sparse saving the last saved frame's, otherwise
   those of the frames lo .. hi *)
Definition loadable (sp : bool) (lo hi : Z) (s : sync) (f : Z) : Prop :=
  if sp then f = s_last_saved s /\ 0 <= f else lo <= f <= hi.
(* the cells of the loadable frames are good; hi also bounds the last saved frame *)
Definition Cells (w : Z) (sp : bool) (lo hi : Z) (s : sync) (g : game) : Prop :=
  cells_wf w s g /\ (sp = true -> NULL <= s_last_saved s <= hi) /\
  forall f, loadable sp lo hi s f -> cell_ok w s g f.

Lemma Cells_dense : forall w lo hi s g, Cells w false lo hi s g <-> CellsI w lo hi s g.
Proof.
  intros w lo hi s g. unfold Cells, CellsI, cells_wf, loadable, cell_ok. split.
  - intros ((A & B & C) & _ & D). auto.
  - intros (A & B & C & D). split; [auto|]. split; [discriminate|exact D].
Qed.

Lemma Cells_same : forall w sp lo hi s s' g, Cells w sp lo hi s g -> cells_same s s' -> Cells w sp lo hi s' g.
Proof.
  intros w sp lo hi s s' g ((A & B & C) & D & E) Hs. pose proof Hs as (F1 & F2 & F3).
  split; [unfold cells_wf; rewrite F1, F2; auto|]. split; [rewrite F3; exact D|].
  intros f Hf. eapply cell_ok_same; [|exact Hs]. apply E. unfold loadable in *. rewrite F3 in Hf. exact Hf.
Qed.

Lemma Cells_weaken : forall w sp lo hi lo' hi' s g, Cells w sp lo hi s g ->
  (if sp then hi <= hi' else lo <= lo' /\ hi' <= hi) -> Cells w sp lo' hi' s g.
Proof.
  intros w sp lo hi lo' hi' s g (A & B & C) H. split; [exact A|]. unfold loadable in *. destruct sp.
  - split; [intros X; specialize (B X); lia|exact C].
  - split; [discriminate|]. intros f Hf. apply C. lia.
Qed.

Lemma Cells_saved : forall w sp lo hi s g,
  Cells w sp lo hi s g -> 0 <= w -> 0 <= s_current s -> gframe g = s_current s ->
  s_current s - 1 <= hi <= s_current s -> (sp = false -> s_current s - w <= lo) ->
  Cells w sp lo (s_current s) (saved s) (game_saved w g).
Proof.
  intros w sp lo hi s g (Hwf & B & C) Hw Hc Hgf Hhi Hlo.
  split; [|split].
  - destruct Hwf as (X & Y & Z0). unfold cells_wf, saved, game_saved. cbn [s_maxpred s_cells g_cells]. rewrite !updz_length. auto.
  - intros _. cbn [saved s_last_saved]. unfold NULL. lia.
  - intros f Hf. apply (cell_ok_saved w s g f Hwf Hw Hgf). unfold loadable in *. destruct sp.
    + left. cbn [saved s_last_saved] in Hf. apply Hf.
    + destruct (Z.eq_dec f (s_current s)) as [E|E]; [left; exact E|right].
      specialize (Hlo eq_refl). split; [apply C; lia|lia].
Qed.

Lemma Cells_advanced : forall w sp lo hi s g ins,
  Cells w sp lo hi s g -> hi <= gframe g -> Cells w sp lo hi (advance_frame s) (advanced g ins).
Proof.
  intros w sp lo hi s g ins (A & B & C) Hhi. split; [exact A|]. split; [exact B|].
  intros f Hf. apply cell_ok_advanced; [apply C; exact Hf|].
  unfold loadable in Hf. cbn [advance_frame with_current s_last_saved] in Hf. destruct sp; [specialize (B eq_refl)|]; lia.
Qed.

Lemma Cells_loaded : forall w sp lo hi s g f,
  Cells w sp lo hi s g -> loadable sp lo hi s f -> Cells w sp lo f (with_current s f) (game_loaded g f).
Proof.
  intros w sp lo hi s g f (A & B & C) Hl. split; [exact A|]. unfold loadable in *. cbn [with_current s_last_saved].
  split; [intros ->; destruct Hl as (-> & Hl); unfold NULL; lia|].
  intros f0 Hf0. apply cell_ok_loaded; [apply C|]; destruct sp; lia.
Qed.

Definition sync_frame (s s' : sync) : Prop := cells_same s s' /\ s_current s' = s_current s.
Definition p_frame (p p' : p2p) : Prop :=
  ps_sparse p' = ps_sparse p /\ ps_maxpred p' = ps_maxpred p /\ sync_frame (ps_sync p) (ps_sync p').

Lemma sync_frame_refl : forall s, sync_frame s s.
Proof. intro s. repeat split. Qed.

Lemma sync_kept_frame : forall p p', sync_kept p p' -> p_frame p p'.
Proof. intros p p' (A & B & C). split; [exact B|]. split; [exact C|]. rewrite A. apply sync_frame_refl. Qed.
Lemma inputs_only_frame : forall p p', inputs_only p p' -> p_frame p p'.
Proof. intros p p' (qs & st & og & ls & ->). repeat split. Qed.

Lemma sstep_frame : forall predict p op sr, op <> SAdvance -> sstep predict p op = Ok sr ->
  p_frame p (sr_state sr) /\ o_requests (sr_out sr) = [].
Proof.
  intros predict p op sr Hop H. destruct op as [h v|pl f v|ep st|hs|h|h d|]; cbn [sstep] in H; [..|contradiction].
  - unfold api_add_local_input in H. destruct (kind_at p h) as [[| |]|]; injection H as <-; repeat split.
  - apply res_bind_ok in H. destruct H as (p' & E & H). injection H as <-. split; [|reflexivity]. cbn [sr_state].
    apply inputs_only_frame. eapply ev_input_only. exact E.
  - injection H as <-. split; [|reflexivity]. apply sync_kept_frame, gossip_sync.
  - apply res_bind_ok in H. destruct H as (p' & E & H). injection H as <-. split; [|reflexivity].
    eapply sync_kept_frame, ev_disconnected_kept. exact E.
  - apply res_bind_ok in H. destruct H as ([p' r] & E & H). injection H as <-. split; [|reflexivity].
    eapply sync_kept_frame, api_disconnect_player_kept. exact E.
  - apply res_bind_ok in H. destruct H as ([[p' o] r] & E & H). injection H as <-. cbn [sr_state sr_out].
    apply api_set_input_delay_only in E. destruct E as (E & rs & ->). split; [apply inputs_only_frame; exact E|reflexivity].
Qed.

(* C02 / C04: what a successful advance_frame hands out.  These statements hold for every state of the session model and every operation sequence
   (disconnects, gossip, delay changes, spectators included): they only depend on how requests
   are generated and on the bookkeeping of the saved-state cells.  That no assert fires on the way
   (advance = Ok) is the subject of SessionProgress.v. *)

(* the part of the session state the game-side contract depends on *)
Record JI (w : Z) (p : p2p) (g : game) : Prop := {
  ji_w : 0 <= w;
  ji_mp : ps_maxpred p = w;
  ji_frame : gframe g = s_current (ps_sync p);
  ji_cur : 0 <= s_current (ps_sync p);
  ji_roll : 1 <= w ->
            ps_sparse p = false /\ s_maxpred (ps_sync p) = w /\
            CellsI w (Z.max 0 (s_current (ps_sync p) - w)) (s_current (ps_sync p) - 1) (ps_sync p) g;
}.

Definition loads_in_window (w c : Z) (R : list request) : Prop :=
  forall r, In r R -> match r with RLoad f => c - w <= f < c | _ => True end.

Lemma liw_nil : forall w c, loads_in_window w c [].
Proof. intros w c r []. Qed.
Lemma liw_cons : forall w c r R, match r with RLoad f => c - w <= f < c | _ => True end ->
  loads_in_window w c R -> loads_in_window w c (r :: R).
Proof. intros w c r R H1 H2 r0 [<-|Hin]; [exact H1|exact (H2 r0 Hin)]. Qed.
Lemma liw_app : forall w c R1 R2, loads_in_window w c R1 -> loads_in_window w c R2 -> loads_in_window w c (R1 ++ R2).
Proof. intros w c R1 R2 H1 H2 r Hin. apply in_app_or in Hin. destruct Hin; [apply H1|apply H2]; assumption. Qed.

(* the call turns the output o into o' by emitting the requests R, which take the game from g to g' *)
Definition emits (w : Z) (o o' : pout) (g g' : game) (R : list request) : Prop :=
  o' = add_reqs o R /\ exec w g R = Some g'.
Lemma emits_nil : forall w o g, emits w o o g g [].
Proof. intros w o g. split; [symmetry; apply add_reqs_nil|reflexivity]. Qed.
Lemma emits_app : forall w o o1 o2 g g1 g2 R1 R2,
  emits w o o1 g g1 R1 -> emits w o1 o2 g1 g2 R2 -> emits w o o2 g g2 (R1 ++ R2).
Proof.
  intros w o o1 o2 g g1 g2 R1 R2 (-> & E1) (-> & E2). split; [apply add_reqs_app|].
  rewrite exec_app, E1. exact E2.
Qed.
Lemma emits_advance : forall w o g ins, emits w o (add_req o (RAdvance ins)) g (advanced g ins) [RAdvance ins].
Proof. intros w o g ins. split; reflexivity. Qed.

Section Exec.
Variable predict : Z -> Z.

Lemma save_exec : forall w sp lo hi s g o,
  Cells w sp lo hi s g -> 0 <= w -> 0 <= s_current s -> gframe g = s_current s ->
  s_current s - 1 <= hi <= s_current s -> (sp = false -> s_current s - w <= lo) ->
  emits w o (add_req o (RSave (s_current s))) g (game_saved w g) [RSave (s_current s)] /\
  gframe (game_saved w g) = s_current s /\ Cells w sp lo (s_current s) (saved s) (game_saved w g).
Proof.
  intros w sp lo hi s g o HC Hw Hc Hgf Hhi Hlo.
  split; [split; [reflexivity|]; cbn [exec]; rewrite <- Hgf, exec_save; reflexivity|].
  split; [exact Hgf|]. eapply Cells_saved; eassumption.
Qed.

(* re-simulation: every step is [Save current]; Advance.  hi = current - 1, or current when the
   state of the current frame is saved already (as it is right after a load) *)
Lemma resim_exec : forall n i p mc o p' o' g lo hi w,
  resim_go predict n i p mc o = Ok (p', o') -> 0 <= w -> 0 <= i -> 0 <= s_current (ps_sync p) ->
  gframe g = s_current (ps_sync p) ->
  Cells w (ps_sparse p) lo hi (ps_sync p) g -> s_current (ps_sync p) - 1 <= hi <= s_current (ps_sync p) ->
  (ps_sparse p = false -> hi = s_current (ps_sync p) - 1 -> 0 < i) ->
  (ps_sparse p = false -> s_current (ps_sync p) + Z.of_nat n - 1 - w <= lo) ->
  exists R g', emits w o o' g g' R /\
    gframe g' = s_current (ps_sync p') /\ s_current (ps_sync p') = s_current (ps_sync p) + Z.of_nat n /\
    Cells w (ps_sparse p) lo (Z.max hi (s_current (ps_sync p') - 1)) (ps_sync p') g' /\
    p' = with_sync p (ps_sync p') /\ forall c, loads_in_window w c R.
Proof.
  intros n i p mc o p' o' g lo hi w H Hw Hi Hc0 Hgf HC Hhi Hfirst Hwin.
  set (c0 := s_current (ps_sync p)) in *. set (sp := ps_sparse p) in *.
  pose (P := fun (j : Z) (q : p2p) (oq : pout) => exists R g',
    emits w o oq g g' R /\ gframe g' = s_current (ps_sync q) /\ s_current (ps_sync q) = c0 + (j - i) /\
    Cells w sp lo (Z.max hi (s_current (ps_sync q) - 1)) (ps_sync q) g' /\
    q = with_sync p (ps_sync q) /\ forall c, loads_in_window w c R).
  assert (HP : P (i + Z.of_nat n) p' o').
  { refine (resim_go_rule predict mc P n i _ p o p' o' H _).
    2:{ exists [], g. split; [apply emits_nil|]. split; [exact Hgf|]. split; [lia|].
        split; [rewrite Z.max_l by lia; exact HC|]. split; [symmetry; apply with_sync_self|intros c; apply liw_nil]. }
    clear H p' o'. intros j q oq s1 ins s2 o2 Hj (R & g' & Hem & Hgf' & Hcq & HCq & Hq & Hnl) E1 E2.
    apply synchronized_inputs_ok in E1. destruct E1 as (qs & _ & ->). cbn [with_queues s_current] in E2.
    set (c := s_current (ps_sync q)) in *.
    assert (Hspq : ps_sparse q = sp) by (rewrite Hq; reflexivity).
    assert (HC1 : Cells w sp lo (Z.max hi (c - 1)) (with_queues (ps_sync q) qs) g')
      by (eapply Cells_same; [exact HCq|repeat split]).
    assert (Hsave : exists Rs g2, emits w oq o2 g' g2 Rs /\ gframe g2 = c /\ s_current s2 = c /\
              Cells w sp lo c s2 g2 /\ forall c', loads_in_window w c' Rs).
    { destruct (resim_saves q j mc c) eqn:Es.
      - destruct E2 as (_ & -> & ->).
        destruct (save_exec w sp lo (Z.max hi (c - 1)) (with_queues (ps_sync q) qs) g' oq HC1 Hw) as (X1 & X2 & X3);
          cbn [with_queues s_current]; fold c; try lia.
        exists [RSave c], (game_saved w g'). split; [exact X1|]. split; [exact X2|]. split; [reflexivity|].
        split; [exact X3|]. intros c'. apply liw_cons; [exact I|apply liw_nil].
      - destruct E2 as (-> & ->). exists [], g'. split; [apply emits_nil|]. split; [exact Hgf'|]. split; [reflexivity|].
        split; [|intros c'; apply liw_nil]. eapply Cells_weaken; [exact HC1|].
        unfold resim_saves in Es. rewrite Hspq in Es. destruct sp; [lia|].
        split; [lia|]. specialize (Hfirst eq_refl). lia. }
    destruct Hsave as (Rs & g2 & Hem2 & Hgf2 & Hc2 & HC2 & Hnl2).
    exists ((R ++ Rs) ++ [RAdvance ins]), (advanced g2 ins).
    cbn [with_sync ps_sync advance_frame with_current s_current]. rewrite Hc2.
    split; [eapply emits_app; [eapply emits_app; eassumption|apply emits_advance]|].
    split; [rewrite gframe_advanced; lia|]. split; [lia|].
    split; [replace (Z.max hi (c + 1 - 1)) with c by lia; apply (Cells_advanced w sp lo c s2 g2 ins HC2); lia|].
    split; [rewrite Hq; reflexivity|]. intros c'. apply liw_app; [apply liw_app; auto|apply liw_cons; [exact I|apply liw_nil]]. }
  destruct HP as (R & g' & Hem & Hgf' & Hc' & HC' & Hp' & Hnl).
  exists R, g'. split; [exact Hem|]. split; [exact Hgf'|]. split; [lia|]. split; [exact HC'|]. split; [exact Hp'|exact Hnl].
Qed.

Lemma adjust_exec : forall p fi mc o p' o' g w hi,
  adjust_gamestate predict p fi mc o = Ok (p', o') -> 0 <= w ->
  gframe g = s_current (ps_sync p) -> s_current (ps_sync p) - 1 <= hi <= s_current (ps_sync p) ->
  Cells w (ps_sparse p) (Z.max 0 (s_current (ps_sync p) - w)) hi (ps_sync p) g ->
  exists R g', emits w o o' g g' R /\ gframe g' = s_current (ps_sync p) /\
    s_current (ps_sync p') = s_current (ps_sync p) /\
    Cells w (ps_sparse p) (Z.max 0 (s_current (ps_sync p) - w)) (s_current (ps_sync p) - 1) (ps_sync p') g' /\
    p' = with_sync p (ps_sync p') /\ loads_in_window w (s_current (ps_sync p)) R.
Proof.
  intros p fi mc o p' o' g w hi H Hw Hgf Hhi HC.
  apply adjust_gamestate_ok in H. cbn [fst] in H. destruct H as (F1 & F2 & F3 & F4 & Er & Ec).
  set (c := s_current (ps_sync p)) in *. set (F := frame_to_load p fi) in *.
  pose proof HC as ((Hmp & _) & HS & Hcells). rewrite Hmp in F3.
  assert (Hl : loadable (ps_sparse p) (Z.max 0 (c - w)) hi (ps_sync p) F).
  { unfold loadable, F, frame_to_load in *. destruct (ps_sparse p); [split; [reflexivity|lia]|lia]. }
  pose proof (exec_load w _ g F (Hcells F Hl) ltac:(lia)) as Ex1.
  pose proof (Cells_loaded _ _ _ _ _ _ F HC Hl) as HC1.
  set (p1 := with_sync p (reset_all (with_current (ps_sync p) F))) in *.
  destruct (resim_exec (Z.to_nat (c - F)) 0 p1 mc (add_req o (RLoad F)) p' o' (game_loaded g F) (Z.max 0 (c - w)) F w Er)
    as (R & g' & (Ho & Ex) & A2 & A3 & A4 & A5 & A6);
    subst p1; cbn [with_sync ps_sync ps_sparse reset_all with_queues s_current with_current]; try lia.
  - apply gframe_loaded. lia.
  - eapply Cells_same; [exact HC1|repeat split].
  - cbn [with_sync ps_sync ps_sparse reset_all with_queues s_current with_current] in A3, A4, A5.
    exists (RLoad F :: R), g'.
    split; [split; [rewrite Ho; unfold add_req, add_reqs; cbn; rewrite <- app_assoc; reflexivity|cbn [exec]; rewrite Ex1; exact Ex]|].
    split; [lia|]. split; [lia|]. split; [rewrite (Z.max_r F) in A4 by lia; rewrite Ec in A4; exact A4|].
    split; [rewrite A5; reflexivity|]. apply liw_cons; [lia|apply A6].
Qed.

Lemma first_rollback_exec : forall p cf o p1 o1 g w hi,
  first_rollback predict p cf o = Ok (p1, o1) -> 0 <= w ->
  gframe g = s_current (ps_sync p) -> s_current (ps_sync p) - 1 <= hi <= s_current (ps_sync p) ->
  Cells w (ps_sparse p) (Z.max 0 (s_current (ps_sync p) - w)) hi (ps_sync p) g ->
  exists R g1 hi1, emits w o o1 g g1 R /\ gframe g1 = s_current (ps_sync p) /\
    s_current (ps_sync p1) = s_current (ps_sync p) /\ s_current (ps_sync p) - 1 <= hi1 <= s_current (ps_sync p) /\
    Cells w (ps_sparse p) (Z.max 0 (s_current (ps_sync p) - w)) hi1 (ps_sync p1) g1 /\
    ps_sparse p1 = ps_sparse p /\ ps_maxpred p1 = ps_maxpred p /\ loads_in_window w (s_current (ps_sync p)) R.
Proof.
  intros p cf o p1 o1 g w hi H Hw Hgf Hhi HC.
  apply first_rollback_inv in H. destruct H as [(_ & -> & ->)|(_ & p0 & Ea & ->)].
  - exists [], g, hi. split; [apply emits_nil|]. repeat (split; [assumption || reflexivity|]). apply liw_nil.
  - destruct (adjust_exec _ _ _ _ _ _ g w hi Ea Hw Hgf Hhi HC) as (R & g' & A1 & A2 & A3 & A4 & A5 & A6).
    exists R, g', (s_current (ps_sync p) - 1). cbn [with_disc_frame ps_sync ps_sparse ps_maxpred].
    split; [exact A1|]. split; [exact A2|]. split; [exact A3|]. split; [lia|]. split; [exact A4|].
    rewrite A5. split; [reflexivity|]. split; [reflexivity|exact A6].
Qed.

Lemma handle_rollback_exec : forall p cf o p' o' g w hi,
  handle_rollback_and_save predict p cf o = Ok (p', o') -> 0 <= w ->
  gframe g = s_current (ps_sync p) -> 0 <= s_current (ps_sync p) ->
  s_current (ps_sync p) - 1 <= hi <= s_current (ps_sync p) ->
  Cells w (ps_sparse p) (Z.max 0 (s_current (ps_sync p) - w)) hi (ps_sync p) g ->
  exists R g', emits w o o' g g' R /\ gframe g' = s_current (ps_sync p) /\
    s_current (ps_sync p') = s_current (ps_sync p) /\
    Cells w (ps_sparse p) (Z.max 0 (s_current (ps_sync p) - w)) (s_current (ps_sync p)) (ps_sync p') g' /\
    ps_sparse p' = ps_sparse p /\ ps_maxpred p' = ps_maxpred p /\ loads_in_window w (s_current (ps_sync p)) R.
Proof.
  intros p cf o p' o' g w hi H Hw Hgf Hc0 Hhi HC. rewrite handle_rollback_and_save_eq in H.
  apply res_bind_ok in H. destruct H as ([p1 o1] & E1 & H).
  destruct (first_rollback_exec _ _ _ _ _ g w hi E1 Hw Hgf Hhi HC) as (R1 & g1 & hi1 & B1 & B2 & B3 & B4 & B5 & B6 & B7 & B8).
  set (c := s_current (ps_sync p)) in *. set (lo := Z.max 0 (c - w)) in *. rewrite B6 in H.
  assert (Hsave : forall p2 o2, save_p2p p1 o1 = Ok (p2, o2) ->
            exists g2, emits w o o2 g g2 (R1 ++ [RSave c]) /\ gframe g2 = c /\ s_current (ps_sync p2) = c /\
              Cells w (ps_sparse p) lo c (ps_sync p2) g2 /\ ps_sparse p2 = ps_sparse p /\ ps_maxpred p2 = ps_maxpred p).
  { intros p2 o2 Es. apply save_p2p_ok in Es. destruct Es as (_ & -> & ->). rewrite B3.
    destruct (save_exec w (ps_sparse p) lo hi1 (ps_sync p1) g1 o1 B5 Hw) as (X1 & X2 & X3); rewrite ?B3; try lia.
    rewrite B3 in X1, X2, X3.
    exists (game_saved w g1). split; [eapply emits_app; eassumption|]. cbn [with_sync ps_sync ps_sparse ps_maxpred saved s_current]. auto. }
  assert (Hliw : loads_in_window w c (R1 ++ [RSave c])) by (apply liw_app; [exact B8|apply liw_cons; [exact I|apply liw_nil]]).
  destruct (ps_sparse p) eqn:Hsp.
  - apply check_last_saved_state_ok in H. rewrite B3 in H. fold c in H.
    destruct (c - s_last_saved (ps_sync p1) <? ps_maxpred p1).
    { injection H as <- <-. exists R1, g1. split; [exact B1|]. split; [exact B2|]. split; [exact B3|].
      split; [eapply Cells_weaken; [exact B5|lia]|]. auto. }
    destruct H as (H & _). destruct (c <=? cf).
    + destruct (Hsave _ _ H) as (g2 & X1 & X2 & X3 & X4 & X5 & X6). exists (R1 ++ [RSave c]), g2. auto 8.
    + destruct (adjust_exec p1 _ cf o1 p' o' g1 w hi1 H Hw) as (R & g' & A1 & A2 & A3 & A4 & A5 & A6); rewrite ?B3, ?B6; try assumption.
      rewrite B3, B6 in *. exists (R1 ++ R), g'. split; [eapply emits_app; eassumption|]. split; [exact A2|]. split; [exact A3|].
      split; [eapply Cells_weaken; [exact A4|fold c; lia]|]. rewrite A5. cbn [with_sync ps_sparse ps_maxpred].
      split; [exact B6|]. split; [exact B7|]. apply liw_app; assumption.
  - destruct (Hsave _ _ H) as (g2 & X1 & X2 & X3 & X4 & X5 & X6). exists (R1 ++ [RSave c]), g2. auto 8.
Qed.

Lemma advance_rollback_frame_exec : forall p o p' o' g w hi,
  advance_rollback_frame predict p o = Ok (p', o') -> 1 <= w -> ps_maxpred p = w ->
  gframe g = s_current (ps_sync p) -> 0 <= s_current (ps_sync p) ->
  s_current (ps_sync p) - 1 <= hi <= s_current (ps_sync p) ->
  Cells w (ps_sparse p) (Z.max 0 (s_current (ps_sync p) - w)) hi (ps_sync p) g ->
  exists R g' cf,
    confirmed_frame p = Ok cf /\
    o_requests o' = o_requests o ++ R /\ exec w g R = Some g' /\
    gframe g' = s_current (ps_sync p') /\
    (s_current (ps_sync p') = s_current (ps_sync p) \/ s_current (ps_sync p') = s_current (ps_sync p) + 1) /\
    Cells w (ps_sparse p) (Z.max 0 (s_current (ps_sync p) - w)) (s_current (ps_sync p)) (ps_sync p') g' /\
    ps_sparse p' = ps_sparse p /\ ps_maxpred p' = w /\
    loads_in_window w (s_current (ps_sync p)) R /\
    (* the gate: a new frame is only simulated within the window of what is confirmed *)
    (s_current (ps_sync p') = s_current (ps_sync p) + 1 ->
       (exists ins R0, R = R0 ++ [RAdvance ins]) /\
       (if cf <? 0 then s_current (ps_sync p) < w else s_current (ps_sync p) - cf < w)).
Proof.
  intros p o p' o' g w hi H Hw Hmpp Hgf Hc0 Hhi HC.
  apply advance_rollback_frame_inv in H.
  destruct H as (cf & p1 & o1 & p2 & o2 & s3 & p4 & o4 & Ecf & E1 & E2 & E3 & E4 & H).
  destruct (handle_rollback_exec p cf o p1 o1 g w hi E1 ltac:(lia) Hgf Hc0 Hhi HC)
    as (R1 & g1 & (-> & A1) & A2 & A3 & A4 & A5 & A6 & A7).
  set (c := s_current (ps_sync p)) in *. set (lo := Z.max 0 (c - w)) in *.
  apply send_spectators_shape in E2. destruct E2 as (ns & ss & -> & ->).
  apply set_last_confirmed_frame_ok in E3. destruct E3 as (_ & ->).
  apply register_local_inputs_only in E4. destruct E4 as ((qs & st & og & ls & ->) & rs & ->).
  apply advance_if_allowed_inv in H. unfold frames_ahead in H.
  cbn [with_outgoing with_status with_sync with_next_spec with_queues ps_sync ps_maxpred ps_status ps_sparse
       confirmed_at s_current s_last_confirmed] in H.
  rewrite A3, A6, Hmpp in H. set (L := confirm_target (ps_sync p1) cf (ps_sparse p1)) in *.
  assert (HL : L <= cf) by (unfold L, confirm_target; destruct (ps_sparse p1); lia).
  assert (HC4 : Cells w (ps_sparse p) lo c (with_queues (confirmed_at (ps_sync p1) L) qs) g1)
    by (eapply Cells_same; [exact A4|repeat split]).
  destruct (Z.ltb_spec (if L =? NULL then c else c - L) w) as [Hgate|Hgate].
  - (* the new frame is simulated *)
    destruct H as (s5 & ins & E5 & -> & ->). apply synchronized_inputs_ok in E5. destruct E5 as (qs5 & _ & ->).
    exists (R1 ++ [RAdvance ins]), (advanced g1 ins), cf.
    cbn [add_req add_rsends add_ssends add_reqs o_requests with_pending with_outgoing with_status with_sync with_next_spec
         ps_sync ps_sparse ps_maxpred advance_frame with_current with_queues confirmed_at s_current].
    split; [exact Ecf|]. split; [symmetry; apply app_assoc|]. split; [rewrite exec_app, A1; reflexivity|].
    split; [rewrite gframe_advanced; lia|]. split; [right; lia|].
    split; [apply (Cells_advanced w _ lo c (with_queues (with_queues (confirmed_at (ps_sync p1) L) qs) qs5) g1 ins);
            [eapply Cells_same; [exact HC4|repeat split]|lia]|].
    split; [exact A5|]. split; [congruence|].
    split; [apply liw_app; [exact A7|apply liw_cons; [exact I|apply liw_nil]]|].
    intros _. split; [exists ins, R1; reflexivity|].
    destruct (Z.eqb_spec L NULL); destruct (Z.ltb_spec cf 0); unfold NULL in *; lia.
  - (* stalled at the prediction limit *)
    destruct H as (-> & ->). exists R1, g1, cf.
    cbn [add_rsends add_ssends add_reqs o_requests with_outgoing with_status with_sync with_next_spec ps_sync ps_sparse ps_maxpred
         with_queues confirmed_at s_current].
    split; [exact Ecf|]. split; [reflexivity|]. split; [exact A1|]. split; [lia|]. split; [left; exact A3|].
    split; [exact HC4|]. split; [exact A5|]. split; [congruence|]. split; [exact A7|]. intros X. lia.
Qed.

End Exec.

Lemma confirmed_inputs_go_len : forall st f qs r, confirmed_inputs_go f qs st = Ok r -> length r = length st.
Proof.
  induction st as [|c st IH]; intros f qs r H.
  - destruct qs; cbn in H; inversion H; subst; reflexivity.
  - destruct qs as [|q qs]; cbn [confirmed_inputs_go] in H; [discriminate|].
    destruct (cs_disc c && (cs_last c <? f)).
    + apply res_bind_ok in H. destruct H as (r' & E & H). inversion H; subst. cbn. f_equal. eapply IH; eassumption.
    + apply res_bind_ok in H. destruct H as (pi & _ & H). apply res_bind_ok in H. destruct H as (r' & E & H).
      inversion H; subst. cbn. f_equal. eapply IH; eassumption.
Qed.

Lemma advance_lockstep_shape : forall p o p' o',
  advance_lockstep_frame p o = Ok (p', o') ->
  ps_maxpred p' = ps_maxpred p /\ ps_sparse p' = ps_sparse p /\
  exists R, o_requests o' = o_requests o ++ R /\
    ((R = [] /\ s_current (ps_sync p') = s_current (ps_sync p)) \/
     (exists ins p1 cf, R = [RAdvance ins] /\ s_current (ps_sync p') = s_current (ps_sync p) + 1 /\
        Forall (fun i => snd i = Confirmed \/ snd i = Disconnected) ins /\
        (* the frame that was simulated is at or below the confirmed frame (after this tick's
           local inputs were registered) *)
        confirmed_frame p1 = Ok cf /\ ps_status p1 = ps_status p' /\ s_current (ps_sync p) <= cf)).
Proof.
  intros p o p' o' H. apply advance_lockstep_frame_inv in H.
  destruct H as (p1 & o1 & cf & p2 & o2 & cf2 & p3 & s4 & E1 & Ecf & Hmid & _ & E3 & E4 & ->).
  pose proof (register_local_inputs_only _ _ _ _ E1) as ((qs & st & og & ls & Hp1) & rs & ->).
  apply send_spectators_shape in E3. destruct E3 as (ns & ss & -> & ->).
  apply set_last_confirmed_frame_ok in E4. destruct E4 as (_ & ->).
  assert (Hc1 : s_current (ps_sync p1) = s_current (ps_sync p)) by (rewrite Hp1; reflexivity).
  destruct (Z.leb_spec (s_current (ps_sync p1)) cf) as [Hle|Hgt].
  - destruct Hmid as (pis & _ & -> & ->).
    cbn [with_sync with_next_spec with_pending ps_maxpred ps_sparse ps_sync ps_status confirmed_at advance_frame with_current s_current].
    split; [rewrite Hp1; reflexivity|]. split; [rewrite Hp1; reflexivity|].
    eexists. split; [reflexivity|]. right. eexists; exists p1, cf. split; [reflexivity|]. split; [lia|].
    split; [|split; [exact Ecf|split; [reflexivity|lia]]].
    apply Forall_forall. intros i Hin. apply in_map_iff in Hin. destruct Hin as (pi & <- & _).
    destruct (pi_frame pi =? NULL); cbn; auto.
  - destruct Hmid as (-> & ->).
    cbn [with_sync with_next_spec ps_maxpred ps_sparse ps_sync confirmed_at s_current].
    split; [rewrite Hp1; reflexivity|]. split; [rewrite Hp1; reflexivity|].
    exists []. split; [cbn; rewrite app_nil_r; reflexivity|]. left. split; [reflexivity|exact Hc1].
Qed.

(* rollback mode, either saving mode: the game is at the current frame and the cells of the loadable
   frames are good *)
Record JR (w : Z) (p : p2p) (g : game) : Prop := {
  jr_w : 1 <= w;
  jr_mp : ps_maxpred p = w;
  jr_frame : gframe g = s_current (ps_sync p);
  jr_cur : 0 <= s_current (ps_sync p);
  jr_cells : Cells w (ps_sparse p) (Z.max 0 (s_current (ps_sync p) - w))
               (if ps_sparse p then s_current (ps_sync p) else s_current (ps_sync p) - 1) (ps_sync p) g;
}.

Lemma JI_JR : forall w p g, 1 <= w -> (JI w p g <-> JR w p g /\ ps_sparse p = false).
Proof.
  intros w p g Hw. split.
  - intros [A B C D E]. destruct (E Hw) as (E1 & _ & E3). split; [|exact E1].
    constructor; try assumption. rewrite E1. apply Cells_dense. exact E3.
  - intros ([A B C D E] & Hsp). rewrite Hsp in E. apply Cells_dense in E.
    constructor; try assumption; [lia|]. intros _. split; [exact Hsp|]. split; [apply E|exact E].
Qed.

Definition no_save_load (R : list request) : Prop :=
  forall r, In r R -> match r with RAdvance ins => Forall (fun i => snd i = Confirmed \/ snd i = Disconnected) ins | _ => False end.

Lemma first_save_exec : forall p p1 o1 g w, first_save p = Ok (p1, o1) -> JR w p g ->
  exists R g1, emits w out0 o1 g g1 R /\ JR w p1 g1 /\ ps_sparse p1 = ps_sparse p /\
    s_current (ps_sync p1) = s_current (ps_sync p) /\ loads_in_window w (s_current (ps_sync p)) R /\
    (s_current (ps_sync p) = 0 -> R = [RSave 0]).
Proof.
  intros p p1 o1 g w E [Hw Hmpp Hgf Hc0 HC]. unfold first_save in E.
  assert ((ps_maxpred p =? 0) = false) as Hm0 by lia. rewrite Hm0 in E.
  set (c := s_current (ps_sync p)) in *. set (lo := Z.max 0 (c - w)) in *. set (sp := ps_sparse p) in *.
  destruct (Z.eqb_spec c 0) as [Hz|Hnz]; cbn [andb negb] in E.
  - apply save_p2p_ok in E. destruct E as (_ & -> & ->). fold c.
    destruct (save_exec w sp lo _ (ps_sync p) g out0 HC ltac:(lia) Hc0 Hgf) as (X1 & X2 & X3);
      [fold c; destruct sp; lia|fold c lo; lia|].
    exists [RSave c], (game_saved w g). fold c in X1, X2, X3. split; [exact X1|]. split.
    { constructor; cbn [with_sync ps_maxpred ps_sync ps_sparse saved s_current]; fold c sp lo; try assumption.
      eapply Cells_weaken; [exact X3|]. destruct sp; lia. }
    split; [reflexivity|]. split; [reflexivity|]. split; [apply liw_cons; [exact I|apply liw_nil]|].
    intros _. rewrite Hz. reflexivity.
  - injection E as <- <-. exists [], g. split; [apply emits_nil|]. split; [constructor; assumption|].
    split; [reflexivity|]. split; [reflexivity|]. split; [apply liw_nil|]. intros X. contradiction.
Qed.

Section Exec2.
Variable predict : Z -> Z.

Lemma advance_roll_exec : forall p p' o r g w,
  advance predict p = Ok (p', o, r) -> JR w p g ->
  exists g', exec w g (o_requests o) = Some g' /\ JR w p' g' /\ ps_sparse p' = ps_sparse p /\
    (s_current (ps_sync p') = s_current (ps_sync p) \/ s_current (ps_sync p') = s_current (ps_sync p) + 1) /\
    loads_in_window w (s_current (ps_sync p)) (o_requests o) /\
    (r <> AOk -> o_requests o = [] /\ p' = p) /\
    (* the very first call starts with the save of frame 0 *)
    (r = AOk -> s_current (ps_sync p) = 0 -> exists R, o_requests o = RSave 0 :: R) /\
    (* a new frame is simulated only as the last request, and only inside the window of what is confirmed
       once the disconnects of this call are taken in *)
    (s_current (ps_sync p') = s_current (ps_sync p) + 1 ->
       (exists ins R0, o_requests o = R0 ++ [RAdvance ins]) /\
       exists cf p1 o1 p2, (if cf <? 0 then s_current (ps_sync p) < w else s_current (ps_sync p) - cf < w) /\
                           first_save p = Ok (p1, o1) /\ update_player_disconnects p1 = Ok p2 /\ confirmed_frame p2 = Ok cf).
Proof.
  intros p p' o r g w H HG. pose proof HG as [Hw Hmpp Hgf Hc0 HC].
  apply advance_inv in H. destruct H as [(Hr & -> & ->)|(-> & _ & _ & p1 & o1 & p2 & E1 & E2 & E3)].
  { exists g. split; [reflexivity|]. split; [exact HG|]. split; [reflexivity|]. split; [left; reflexivity|]. split; [apply liw_nil|].
    split; [auto|]. split; [contradiction|]. intros X. lia. }
  destruct (first_save_exec p p1 o1 g w E1 HG) as (R0 & g0 & (-> & Ex0) & [_ Hmpp1 Hg0 _ HC1] & Hsp1 & Hc1 & Hliw0 & Hz0).
  rewrite Hsp1, Hc1 in HC1. rewrite Hc1 in Hg0.
  set (c := s_current (ps_sync p)) in *. set (lo := Z.max 0 (c - w)) in *. set (sp := ps_sparse p) in *.
  set (hi := if sp then c else c - 1) in *. assert (Hhi : c - 1 <= hi <= c) by (subst hi; destruct sp; lia).
  assert ((ps_maxpred p =? 0) = false) as Hm0 by lia. rewrite Hm0 in E3.
  destruct (update_player_disconnects_kept _ _ E2) as (S2 & Hsp2 & Hmpp2).
  destruct (advance_rollback_frame_exec predict p2 _ p' o g0 w hi E3 Hw) as (R & g' & cf & Acf & A2 & A3 & A4 & A5 & A6 & A7 & A8 & A9 & A10);
    rewrite ?S2, ?Hsp2, ?Hsp1, ?Hc1; try assumption; try congruence.
  rewrite S2, Hsp2, Hsp1, Hc1 in *. fold lo in A6. cbn [add_reqs out0 o_requests app] in A2.
  exists g'. rewrite A2. split; [rewrite exec_app, Ex0; exact A3|].
  split.
  { constructor; [exact Hw|exact A8|exact A4|lia|]. rewrite A7. fold sp.
    eapply Cells_weaken; [exact A6|]. destruct sp; lia. }
  split; [exact A7|]. split; [exact A5|]. split; [apply liw_app; assumption|]. split; [intros X; contradiction|].
  split; [intros _ Hz; rewrite (Hz0 Hz); eexists; reflexivity|].
  intros Hadv. destruct (A10 Hadv) as ((ins & Rr & ->) & Hgate).
  split; [exists ins, (R0 ++ Rr); apply app_assoc|]. exists cf, p1, (add_reqs out0 R0), p2. auto.
Qed.

Lemma advance_exec : forall p p' o r g w,
  advance predict p = Ok (p', o, r) -> JI w p g ->
  exists g', exec w g (o_requests o) = Some g' /\ JI w p' g' /\
    (s_current (ps_sync p') = s_current (ps_sync p) \/ s_current (ps_sync p') = s_current (ps_sync p) + 1) /\
    loads_in_window w (s_current (ps_sync p)) (o_requests o) /\
    (r <> AOk -> o_requests o = [] /\ p' = p) /\
    (w = 0 -> no_save_load (o_requests o)) /\
    (* rollback mode: the very first call starts with the save of frame 0 *)
    (1 <= w -> r = AOk -> s_current (ps_sync p) = 0 -> exists R, o_requests o = RSave 0 :: R) /\
    (* a new frame is simulated only as the last request, and only inside the window of what is
       confirmed: cf = the newest frame for which every connected player's input is held *)
    (s_current (ps_sync p') = s_current (ps_sync p) + 1 ->
       (exists ins R0, o_requests o = R0 ++ [RAdvance ins]) /\
       exists cf, (if w =? 0 then s_current (ps_sync p) <= cf
                   else if cf <? 0 then s_current (ps_sync p) < w else s_current (ps_sync p) - cf < w) /\
                  (exists q, confirmed_frame q = Ok cf /\
                             (w = 0 -> ps_status q = ps_status p'))).
Proof.
  intros p p' o r g w H J. destruct (Z.eqb_spec w 0) as [Hw0|Hw0].
  - (* lockstep *)
    subst w. destruct J as [Hw Hmpp Hgf Hc0 _].
    apply advance_inv in H. destruct H as [(Hr & -> & ->)|(-> & _ & _ & p1 & o1 & p2 & E1 & E2 & E3)].
    { exists g. split; [reflexivity|]. split; [constructor; try assumption; intros; lia|]. split; [left; reflexivity|].
      split; [apply liw_nil|]. split; [auto|]. split; [intros _ r0 []|]. split; [intros; lia|]. intros X. lia. }
    unfold first_save in E1. rewrite Hmpp in E1, E3. rewrite andb_false_r in E1. injection E1 as <- <-.
    apply update_player_disconnects_kept in E2. destruct E2 as (S2 & Hsp2 & Hmpp2).
    destruct (advance_lockstep_shape _ _ _ _ E3) as (M1 & M2 & R & HR & Hcase). rewrite S2 in Hcase. cbn in HR.
    destruct Hcase as [[-> Hcur]|(ins & pa & cf & -> & Hcur & Hst & Hcf & Hsta & Hle)]; rewrite HR.
    + exists g. split; [reflexivity|]. split; [constructor; try assumption; try congruence; intros; lia|].
      split; [left; exact Hcur|]. split; [apply liw_nil|]. split; [intros X; contradiction|]. split; [intros _ r0 []|].
      split; [intros; lia|]. intros X. lia.
    + exists (advanced g ins). split; [reflexivity|]. split.
      { constructor; try congruence; [rewrite gframe_advanced; lia|lia|intros; lia]. }
      split; [right; exact Hcur|]. split; [apply liw_cons; [exact I|apply liw_nil]|]. split; [intros X; contradiction|].
      split; [intros _ r0 [<-|[]]; exact Hst|]. split; [intros; lia|].
      intros _. split; [exists ins, []; reflexivity|]. exists cf. split; [exact Hle|]. exists pa. auto.
  - (* rollback *)
    pose proof (ji_w _ _ _ J) as Hw. apply (JI_JR w p g ltac:(lia)) in J. destruct J as (HG & Hsp).
    destruct (advance_roll_exec p p' o r g w H HG) as (g' & A1 & A2 & Hsp' & A3 & A4 & A5 & A6 & A7).
    exists g'. split; [exact A1|]. split; [apply (JI_JR w p' g' ltac:(lia)); split; [exact A2|congruence]|].
    split; [exact A3|]. split; [exact A4|]. split; [exact A5|]. split; [intros X; lia|]. split; [intros _; exact A6|].
    intros Hadv. destruct (A7 Hadv) as (X1 & cf & p1 & o1 & p2 & X2 & _ & _ & X3). split; [exact X1|]. exists cf.
    split; [exact X2|]. exists p2. split; [exact X3|]. intros X. lia.
Qed.

End Exec2.

Lemma JR_frame : forall w p p' g, JR w p g -> p_frame p p' -> JR w p' g.
Proof.
  intros w p p' g [A B C D E] (F1 & F2 & F3 & F4).
  constructor; try congruence. rewrite F1, F4. eapply Cells_same; eassumption.
Qed.

Lemma JI_frame : forall w p p' g, JI w p g -> p_frame p p' -> JI w p' g.
Proof.
  intros w p p' g J F. destruct (Z.eq_dec w 0) as [->|Hw].
  - destruct J as [A B C D _], F as (_ & F2 & _ & F4). constructor; try congruence; intros; lia.
  - pose proof (ji_w _ _ _ J) as Hw0. apply JI_JR in J; [|lia]. destruct J as (G & Hsp).
    apply JI_JR; [lia|]. split; [eapply JR_frame; eassumption|]. destruct F as (F1 & _). congruence.
Qed.

Fixpoint exec_outs (w : Z) (g : game) (outs : list (pout * apires)) : option game :=
  match outs with
  | [] => Some g
  | (o, _) :: r => match exec w g (o_requests o) with Some g' => exec_outs w g' r | None => None end
  end.

Section Run.
Variable predict : Z -> Z.

Lemma sstep_exec : forall p op sr g w,
  sstep predict p op = Ok sr -> JI w p g ->
  exists g', exec w g (o_requests (sr_out sr)) = Some g' /\ JI w (sr_state sr) g' /\
    (s_current (ps_sync (sr_state sr)) = s_current (ps_sync p) \/
     (op = SAdvance /\ s_current (ps_sync (sr_state sr)) = s_current (ps_sync p) + 1)) /\
    loads_in_window w (s_current (ps_sync p)) (o_requests (sr_out sr)) /\
    (w = 0 -> no_save_load (o_requests (sr_out sr))).
Proof.
  intros p op sr g w H J. destruct (sop_advance_dec op) as [->|Hop].
  - cbn [sstep] in H. apply res_bind_ok in H. destruct H as ([[p' o] r] & E & H). injection H as <-. cbn [sr_out sr_state].
    destruct (advance_exec predict _ _ _ _ _ _ E J) as (g' & A1 & A2 & A3 & A4 & _ & A6 & _).
    exists g'. split; [exact A1|]. split; [exact A2|].
    split; [destruct A3 as [A3|A3]; [left; exact A3|right; split; [reflexivity|exact A3]]|]. split; [exact A4|exact A6].
  - destruct (sstep_frame predict p op sr Hop H) as (F & ->). exists g. split; [reflexivity|].
    split; [eapply JI_frame; eassumption|]. split; [left; apply F|]. split; [apply liw_nil|intros _ r []].
Qed.

Lemma sstep_roll_exec : forall p op sr g w,
  sstep predict p op = Ok sr -> JR w p g ->
  exists g', exec w g (o_requests (sr_out sr)) = Some g' /\ JR w (sr_state sr) g' /\
    ps_sparse (sr_state sr) = ps_sparse p /\
    (s_current (ps_sync (sr_state sr)) = s_current (ps_sync p) \/
     (op = SAdvance /\ s_current (ps_sync (sr_state sr)) = s_current (ps_sync p) + 1)) /\
    loads_in_window w (s_current (ps_sync p)) (o_requests (sr_out sr)).
Proof.
  intros p op sr g w H G. destruct (sop_advance_dec op) as [->|Hop].
  - cbn [sstep] in H. apply res_bind_ok in H. destruct H as ([[p' o] r] & E & H). injection H as <-. cbn [sr_out sr_state].
    destruct (advance_roll_exec predict _ _ _ _ _ _ E G) as (g' & A1 & A2 & A3 & A4 & A5 & _).
    exists g'. split; [exact A1|]. split; [exact A2|]. split; [exact A3|].
    split; [destruct A4 as [A4|A4]; [left; exact A4|right; split; [reflexivity|exact A4]]|exact A5].
  - destruct (sstep_frame predict p op sr Hop H) as (F & ->). exists g. split; [reflexivity|].
    split; [eapply JR_frame; eassumption|]. split; [apply F|]. split; [left; apply F|apply liw_nil].
Qed.

Lemma srun_preserves : forall (I : p2p -> game -> Prop) (w : Z),
  (forall p op sr g, sstep predict p op = Ok sr -> I p g ->
     exists g', exec w g (o_requests (sr_out sr)) = Some g' /\ I (sr_state sr) g') ->
  forall ops p0 g0 p outs, I p0 g0 -> srun predict p0 ops = Ok (p, outs) ->
  exists g, exec_outs w g0 outs = Some g /\ I p g.
Proof.
  intros I w Hstep. induction ops as [|op ops IH]; intros p0 g0 p outs J H; cbn [srun] in H.
  - injection H as <- <-. exists g0. split; [reflexivity|exact J].
  - apply res_bind_ok in H. destruct H as (sr & E & H).
    apply res_bind_ok in H. destruct H as ([p' outs'] & E' & H). injection H as <- <-.
    destruct (Hstep _ _ _ _ E J) as (g1 & A1 & A2). destruct (IH _ _ _ _ A2 E') as (g2 & B1 & B2).
    exists g2. cbn [exec_outs]. rewrite A1. split; assumption.
Qed.

(* C02 (for every operation sequence, as long as no assert fires): executing the request lists of
   all calls, in order, on the free game is always well defined, and the game-side invariant -
   game frame = current_frame(), every cell inside the prediction window holds the state of its
   frame on the current timeline - holds again afterwards *)
Theorem requests_executable : forall ops p0 g0 w p outs,
  JI w p0 g0 -> srun predict p0 ops = Ok (p, outs) ->
  exists g, exec_outs w g0 outs = Some g /\ JI w p g.
Proof.
  intros ops p0 g0 w. apply (srun_preserves (JI w) w). intros p op sr g H J.
  destruct (sstep_exec p op sr g w H J) as (g' & A1 & A2 & _). exists g'. split; assumption.
Qed.

End Run.

Lemma JI_start : forall n w d kinds eps nspec, 0 <= w ->
  JI w (session_start n w false d kinds eps nspec) (game0 w).
Proof.
  intros n w d kinds eps nspec Hw.
  constructor; unfold session_start, p2p_new, sync_new, game0, gframe;
    cbn [with_running ps_maxpred ps_sync ps_sparse with_queues s_current s_maxpred s_cells g_hist g_cells length Z.of_nat].
  - exact Hw.
  - reflexivity.
  - reflexivity.
  - lia.
  - intros H1. assert (((w =? 0) && false) = false) as -> by apply andb_false_r.
    split; [reflexivity|]. split; [reflexivity|].
    unfold CellsI, cell_frame, cell_pos.
    cbn [with_running ps_sync with_queues s_maxpred s_cells g_cells s_current].
    rewrite !repeat_length.
    split; [reflexivity|]. split; [lia|]. split; [lia|]. intros f Hf. lia.
Qed.

Lemma all_clean_reset : forall qs, all_clean (map reset_prediction qs).
Proof. induction qs; constructor; auto. Qed.

Lemma QsI_reset : forall c c' L qs gs, QsI c L qs gs -> QsI c' L (map reset_prediction qs) gs.
Proof.
  intros c c' L qs gs H. induction H as [|q g qs gs Hq HQ IH]; constructor; [eapply qi_reset; exact Hq|exact IH].
Qed.

Lemma same_user_reset : forall qs, same_user qs (map reset_prediction qs).
Proof. induction qs as [|q qs IH]; constructor; [split; reflexivity|exact IH]. Qed.

(* the queues of a session in which nobody is disconnected, against their ghosts *)
Record QsOK (L : Z) (p : p2p) (gs : list ghost) : Prop := {
  qo_conn : connected (ps_status p);
  qo_len : length (ps_status p) = length (s_queues (ps_sync p));
  qo_qs : QsI (s_current (ps_sync p)) L (s_queues (ps_sync p)) gs;
  qo_clean : all_clean (s_queues (ps_sync p));
  qo_cur : 0 <= s_current (ps_sync p) /\ L <= s_current (ps_sync p);
}.

(* p' is p after inputs were read again (a re-simulation, a rollback): only the sync layer differs; its
   queues satisfy the invariant at the frame p' is at and carry no misprediction; what the user set in
   them, the last confirmed frame and max_prediction are as before; idle prediction slots stayed idle *)
Record rolled (L : Z) (p : p2p) (gs : list ghost) (p' : p2p) : Prop := {
  ro_shape : p' = with_sync p (ps_sync p');
  ro_qs : QsI (s_current (ps_sync p')) L (s_queues (ps_sync p')) gs;
  ro_clean : all_clean (s_queues (ps_sync p'));
  ro_user : same_user (s_queues (ps_sync p)) (s_queues (ps_sync p'));
  ro_conf : s_last_confirmed (ps_sync p') = s_last_confirmed (ps_sync p);
  ro_maxpred : s_maxpred (ps_sync p') = s_maxpred (ps_sync p);
  ro_idle : idle_kept (s_current (ps_sync p')) (s_queues (ps_sync p)) gs (s_queues (ps_sync p'));
}.

Lemma rolled_refl : forall L p gs,
  QsI (s_current (ps_sync p)) L (s_queues (ps_sync p)) gs -> all_clean (s_queues (ps_sync p)) -> rolled L p gs p.
Proof.
  intros L p gs HQ Hcl.
  constructor; [symmetry; apply with_sync_self|exact HQ|exact Hcl|apply same_user_refl|reflexivity|reflexivity|apply idle_kept_refl].
Qed.

Lemma rolled_trans : forall L p gs p1 p2,
  rolled L p gs p1 -> rolled L p1 gs p2 -> s_current (ps_sync p1) <= s_current (ps_sync p2) -> rolled L p gs p2.
Proof.
  intros L p gs p1 p2 [A1 A2 A3 A4 A5 A6 A7] [B1 B2 B3 B4 B5 B6 B7] Hc.
  constructor; [rewrite B1, A1 at 1; reflexivity|exact B2|exact B3|eapply same_user_trans; eassumption|congruence|congruence|].
  intros h q gh q' C1 C2 C3 C4 C5. destruct (QsI_nth _ _ _ _ h gh A2 C2) as (q1 & C6 & _).
  apply (B7 h q1 gh q' C6 C2 C3 C4). apply (A7 h q gh q1 C1 C2 C6); [lia|exact C5].
Qed.

Lemma rolled_sync : forall L p gs p1 s', rolled L p gs p1 ->
  s_queues s' = s_queues (ps_sync p1) -> s_current s' = s_current (ps_sync p1) ->
  s_last_confirmed s' = s_last_confirmed (ps_sync p1) -> s_maxpred s' = s_maxpred (ps_sync p1) ->
  rolled L p gs (with_sync p1 s').
Proof.
  intros L p gs p1 s' [A1 A2 A3 A4 A5 A6 A7] Hq Hc HL Hm.
  constructor; cbn [with_sync ps_sync]; rewrite ?Hq, ?Hc, ?HL, ?Hm; try assumption. rewrite A1 at 1. reflexivity.
Qed.

Section Progress.
Variable predict : Z -> Z.

Lemma resim_progress : forall n i p gs L mc o, QsOK L p gs ->
  exists p' o', resim_go predict n i p mc o = Ok (p', o') /\ rolled L p gs p' /\
    s_current (ps_sync p') = s_current (ps_sync p) + Z.of_nat n.
Proof.
  induction n as [|n IH]; intros i p gs L mc o HQ.
  - exists p, o. split; [reflexivity|]. split; [apply rolled_refl; apply HQ|cbn; lia].
  - destruct HQ as [Hcon Hlen HQ Hcl (Hc & HL)]. set (c := s_current (ps_sync p)) in *.
    destruct (sync_inputs_go_ok predict (ps_status p) (s_queues (ps_sync p)) gs c L HQ Hcl Hlen Hcon Hc HL)
      as (qs' & ins & E & HQ' & Hcl' & _ & _ & Hsu & Hkn).
    set (s1 := with_queues (ps_sync p) qs').
    (* whether this step saves or not, the next state has the queues qs' *)
    assert (Hnext : forall s2, s2 = s1 \/ s2 = saved s1 ->
              rolled L p gs (with_sync p (advance_frame s2)) /\ QsOK L (with_sync p (advance_frame s2)) gs /\ s_current s2 = c).
    { intros s2 Hs2. assert (Hf : s_queues s2 = qs' /\ s_current s2 = c /\
                                  s_last_confirmed s2 = s_last_confirmed (ps_sync p) /\ s_maxpred s2 = s_maxpred (ps_sync p))
        by (destruct Hs2 as [->| ->]; repeat split).
      destruct Hf as (Hq2 & Hc2 & HL2 & Hm2).
      split; [|split; [|exact Hc2]];
        constructor; cbn [with_sync ps_status ps_sync advance_frame with_current s_queues s_current s_last_confirmed s_maxpred];
        rewrite ?Hq2, ?Hc2; try assumption; try reflexivity.
      - rewrite Hlen, (QsI_length _ _ _ _ HQ), (QsI_length _ _ _ _ HQ'). reflexivity.
      - lia. }
    assert (Hstep : exists s2 o2, (s2 = s1 \/ s2 = saved s1) /\ forall r,
              resim_go predict n (i + 1) (with_sync p (advance_frame s2)) mc (add_req o2 (RAdvance ins)) = Ok r ->
              resim_go predict (S n) i p mc o = Ok r).
    { destruct (resim_saves p i mc (s_current s1)) eqn:Es.
      - exists (saved s1), (add_req o (RSave (s_current s1))). split; [right; reflexivity|]. intros r Hr.
        apply resim_go_S. exists s1, ins, (saved s1), (add_req o (RSave (s_current s1))).
        split; [apply synchronized_inputs_ok; exists qs'; auto|]. rewrite Es. split; [|exact Hr].
        split; [exact Hc|auto].
      - exists s1, o. split; [left; reflexivity|]. intros r Hr.
        apply resim_go_S. exists s1, ins, s1, o. split; [apply synchronized_inputs_ok; exists qs'; auto|]. rewrite Es. auto. }
    destruct Hstep as (s2 & o2 & Hs2 & Hgo). destruct (Hnext s2 Hs2) as (Hr1 & HQ1 & Hc2).
    destruct (IH (i + 1) (with_sync p (advance_frame s2)) gs L mc (add_req o2 (RAdvance ins)) HQ1) as (p' & o' & E' & Hr' & Hc').
    cbn [with_sync ps_sync advance_frame with_current s_current] in Hc'.
    exists p', o'. split; [apply Hgo; exact E'|]. split; [|lia].
    eapply rolled_trans; [exact Hr1|exact Hr'|]. cbn [with_sync ps_sync advance_frame with_current s_current]. lia.
Qed.

Lemma adjust_progress : forall p gs L fi mc o,
  connected (ps_status p) -> length (ps_status p) = length (s_queues (ps_sync p)) ->
  QsI (s_current (ps_sync p)) L (s_queues (ps_sync p)) gs -> -1 <= L ->
  L <= frame_to_load p fi <= fi -> 0 <= frame_to_load p fi < s_current (ps_sync p) ->
  s_current (ps_sync p) - s_maxpred (ps_sync p) <= frame_to_load p fi ->
  cell_frame (ps_sync p) (frame_to_load p fi) = frame_to_load p fi ->
  exists p' o', adjust_gamestate predict p fi mc o = Ok (p', o') /\ rolled L p gs p' /\
    s_current (ps_sync p') = s_current (ps_sync p).
Proof.
  intros p gs L fi mc o Hcon Hlen HQ HL HLF HFc Hwin Hcell.
  set (c := s_current (ps_sync p)) in *. set (F := frame_to_load p fi) in *.
  set (p1 := with_sync p (reset_all (with_current (ps_sync p) F))).
  assert (Hr1 : rolled L p gs p1).
  { constructor; subst p1; cbn [with_sync ps_sync reset_all with_queues s_queues s_current s_last_confirmed s_maxpred with_current]; try reflexivity.
    - eapply QsI_reset. exact HQ.
    - apply all_clean_reset.
    - apply same_user_reset.
    - intros h q gh q' B1 _ B3 _ _. rewrite nth_error_map, B1 in B3. injection B3 as <-. reflexivity. }
  destruct (resim_progress (Z.to_nat (c - F)) 0 p1 gs L mc (add_req o (RLoad F))) as (p2 & o2 & Er & Hr2 & Hc2).
  { constructor; [exact Hcon|subst p1; cbn; rewrite map_length; exact Hlen|apply Hr1|apply Hr1|subst p1; cbn; lia]. }
  assert (Hc2' : s_current (ps_sync p2) = c) by (subst p1; cbn [with_sync ps_sync reset_all with_queues s_current with_current] in Hc2; lia).
  exists p2, o2. split; [apply adjust_gamestate_ok; fold c F; cbn [fst]; repeat (split; [assumption || lia|]); exact Hc2'|].
  split; [|exact Hc2']. eapply rolled_trans; [exact Hr1|exact Hr2|]. subst p1. cbn [with_sync ps_sync reset_all with_queues s_current with_current]. lia.
Qed.

End Progress.

Lemma csc_fold_QsI : forall qs gs c L acc,
  QsI c L qs gs -> (acc = NULL \/ (L < acc <= c - 1)) ->
  (csc_fold qs acc = NULL /\ acc = NULL /\ all_clean qs) \/ (L < csc_fold qs acc <= c - 1).
Proof.
  intros qs gs c L acc HQ Hacc. destruct (csc_fold_min qs acc) as (A & B & C).
  assert (Hin : forall q, In q qs -> q_first_incorrect q <> NULL -> L < q_first_incorrect q <= c - 1).
  { clear - HQ. induction HQ as [|q g qs gs Hq HQ IH]; intros q0 Hin Hn; [destruct Hin|].
    destruct Hin as [<-|Hin]; [|apply IH; assumption].
    destruct (qi_p4 _ _ _ _ _ Hq Hn) as (_ & (P1 & _) & P3). lia. }
  destruct A as [A|(q & A1 & A2 & A3)].
  - rewrite A. destruct Hacc as [->|Hacc]; [left|right; exact Hacc]. split; [reflexivity|]. split; [reflexivity|].
    apply Forall_forall. intros q Hq. rewrite Forall_forall in C. specialize (C q Hq).
    destruct (Z.eq_dec (q_first_incorrect q) NULL) as [E|E]; [exact E|]. destruct (C E) as (X & _). congruence.
  - right. rewrite <- A2. apply Hin; [exact A1|congruence].
Qed.

Lemma max_fi_clean : forall qs, all_clean qs -> max_first_incorrect qs = NULL.
Proof.
  intros qs H. unfold max_first_incorrect.
  assert (G : forall acc, acc = NULL -> fold_left (fun acc q => Z.max acc (q_first_incorrect q)) qs acc = NULL).
  { induction H as [|q qs Hq Hcl IH]; intros acc Hacc; cbn [fold_left]; [exact Hacc|].
    apply IH. rewrite Hq, Hacc. reflexivity. }
  apply G. reflexivity.
Qed.

Lemma confirm_queues : forall c L L' qs gs,
  QsI c L qs gs -> all_clean qs -> L <= L' -> L' <= c -> Forall (fun g : ghost => L' <= hlen (fst g) - 1) gs ->
  let qs' := if 0 <? L' then map (fun q => discard_confirmed_frames q (L' - 1)) qs else qs in
  (exists gs', QsI c L' qs' gs' /\ map fst gs' = map fst gs) /\ all_clean qs' /\ same_user qs qs' /\
  Forall2 (fun q q' => q_pred q' = q_pred q) qs qs'.
Proof.
  intros c L L' qs gs H Hcl HL HLc Hf. cbv zeta.
  set (D := fun q => if 0 <? L' then discard_confirmed_frames q (L' - 1) else q).
  replace (if 0 <? L' then map (fun q => discard_confirmed_frames q (L' - 1)) qs else qs) with (map D qs)
    by (unfold D; destruct (0 <? L'); [reflexivity|apply map_id]).
  revert Hcl Hf. induction H as [|q g qs1 gs1 Hq HQ1 IH]; intros Hcl Hf; cbn [map].
  - split; [exists []; split; [constructor|reflexivity]|]. split; [constructor|]. split; constructor.
  - inversion Hcl as [|? ? Hq0 Hc1]; subst. inversion Hf as [|? ? Hg0 Hf1]; subst.
    destruct (IH Hc1 Hf1) as ((gs' & A1 & A1') & A2 & A3 & A4).
    destruct (qi_confirm c L L' q (fst g) (snd g) Hq Hq0 HL Hg0 HLc) as (low' & B1 & B2 & B3 & B4 & B5). fold (D q) in B1, B2, B3, B4, B5.
    split; [exists ((fst g, low') :: gs'); split; [constructor; [exact B1|exact A1]|cbn; f_equal; exact A1']|].
    split; [constructor; [exact B2|exact A2]|]. split; [constructor; [split; assumption|exact A3]|].
    constructor; [exact B5|exact A4].
Qed.

Section Progress3.
Variable predict : Z -> Z.

Lemma confirm_progress_g : forall (s : sync) (gs : list ghost) (cf0 : Z) (sp : bool), let cf := (if sp then Z.min cf0 (s_last_saved s) else cf0) in
  QsI (s_current s) (s_last_confirmed s) (s_queues s) gs -> all_clean (s_queues s) ->
  s_last_confirmed s <= Z.min cf (s_current s) ->
  Forall (fun g => Z.min cf (s_current s) <= hlen (fst g) - 1) gs ->
  exists s', set_last_confirmed_frame s cf0 sp = Ok s' /\ s_last_saved s' = s_last_saved s /\
    s_last_confirmed s' = Z.min cf (s_current s) /\ sync_frame s s' /\
    (exists gs', QsI (s_current s) (Z.min cf (s_current s)) (s_queues s') gs' /\ map fst gs' = map fst gs) /\
    all_clean (s_queues s') /\ same_user (s_queues s) (s_queues s') /\
    Forall2 (fun q q' => q_pred q' = q_pred q) (s_queues s) (s_queues s').
Proof using predict.
  intros s gs cf0 sp cf HQ Hcl HL Hcf. exists (confirmed_at s (confirm_target s cf0 sp)).
  split; [apply set_last_confirmed_frame_ok; split; [left; apply max_fi_clean; exact Hcl|reflexivity]|].
  change (confirm_target s cf0 sp) with (Z.min cf (s_current s)).
  split; [reflexivity|]. split; [reflexivity|]. split; [repeat split|].
  apply (confirm_queues _ _ _ _ _ HQ Hcl HL); [lia|exact Hcf].
Qed.

Lemma confirm_progress : forall s gs cf,
  QsI (s_current s) (s_last_confirmed s) (s_queues s) gs -> all_clean (s_queues s) ->
  s_last_confirmed s <= Z.min cf (s_current s) ->
  Forall (fun g => Z.min cf (s_current s) <= hlen (fst g) - 1) gs ->
  exists s', set_last_confirmed_frame s cf false = Ok s' /\
    s_last_confirmed s' = Z.min cf (s_current s) /\ sync_frame s s' /\
    (exists gs', QsI (s_current s) (Z.min cf (s_current s)) (s_queues s') gs' /\ map fst gs' = map fst gs) /\
    all_clean (s_queues s') /\ same_user (s_queues s) (s_queues s') /\
    Forall2 (fun q q' => q_pred q' = q_pred q) (s_queues s) (s_queues s').
Proof.
  intros s gs cf HQ Hcl HL Hcf.
  destruct (confirm_progress_g s gs cf false HQ Hcl HL Hcf) as (s' & A & _ & B). exists s'. split; [exact A|exact B].
Qed.

End Progress3.

Lemma add_input_nofill : forall q hist low uf v,
  RInv q hist low -> uf + q_delay q = hlen hist ->
  (q_last_user q = NULL \/ uf = q_last_user q + 1) ->
  pred_ok q (hlen hist) -> hlen hist + 1 - low <= QLEN ->
  exists q', add_input q uf v = Ok (q', hlen hist) /\ RInv q' (hist ++ [v]) low /\
     q_delay q' = q_delay q /\ q_last_user q' = uf /\ q_last_requested q' = q_last_requested q /\
     q_first_incorrect q' = fi_after q v (hlen hist) /\ q_pred q' = pred_after q v (hlen hist).
Proof.
  intros q hist low uf v I Ht Hs Hp Hcap.
  pose proof (add_input_fills q hist low uf v I Hs) as H. cbv zeta in H. rewrite Ht, Z.sub_diag in H.
  apply H; [lia|exact Hcap|exact Hp|lia].
Qed.

Lemma fi_after_kept : forall q v n, q_first_incorrect q <> NULL -> fi_after q v n = q_first_incorrect q.
Proof.
  intros q v n H. unfold fi_after. apply Z.eqb_neq in H. rewrite H. destruct (pi_frame (q_pred q) =? NULL); reflexivity.
Qed.

Lemma qi_after_add : forall c L q hist low v q',
  QI c L q hist low -> RInv q' (hist ++ [v]) low ->
  q_last_requested q' = q_last_requested q ->
  q_first_incorrect q' = fi_after q v (hlen hist) -> q_pred q' = pred_after q v (hlen hist) ->
  QI c L q' (hist ++ [v]) low.
Proof.
  intros c L q hist low v q' [I P1 P2 P4 Rq Lw Cf] I' R' F' P'.
  pose proof (hlen_nonneg hist) as Hnn. set (n := hlen hist) in *.
  (* a prediction in force without a misprediction recorded: frame n has not been requested beyond c - 1 *)
  assert (Hlast : pi_frame (q_pred q) = n -> q_first_incorrect q = NULL -> n <= q_last_requested q <= c - 1).
  { intros A B. assert (Hact : pi_frame (q_pred q) <> NULL) by (unfold NULL; lia).
    specialize (P2 Hact B). destruct Rq as [Rq|Rq]; unfold NULL in *; lia. }
  (* qi_p1, qi_p2 and qi_p4, each in the three cases of the insertion *)
  constructor; rewrite ?hlen_app, ?R', ?F', ?P'; fold n; [exact I'| | | |exact Rq|exact Lw|lia];
    destruct (insertion_cases q v n Hnn P1) as [(Hp & Hfa & Hpa)|[(Hp & Hf & Hv & Hfa & Hpa)|(Hp & Hfi & Hne & Hpn)]];
    rewrite ?Hfa, ?Hpa.
  - left. exact Hp.
  - cbn [pi_frame]. destruct (n =? q_last_requested q); [left|right]; reflexivity.
  - right. exact Hpn.
  - intros A. contradiction.
  - cbn [pi_frame]. intros A _. specialize (Hlast Hp Hf).
    destruct (Z.eqb_spec n (q_last_requested q)); [contradiction A; reflexivity|lia].
  - intros _ B. contradiction.
  - intros A. destruct (P4 A) as (B & _). contradiction.
  - intros A. contradiction A. reflexivity.
  - intros _. split; [rewrite Hpn; unfold NULL; lia|].
    destruct (Z.eq_dec (q_first_incorrect q) NULL) as [E|E].
    + destruct Hfi as [Hfi|Hfi]; [|congruence]. rewrite Hfi. specialize (Hlast Hp E). lia.
    + rewrite (fi_after_kept q v n E). destruct (P4 E) as (_ & B & C). lia.
Qed.

Lemma Forall2_updz {A B} (R : A -> B -> Prop) : forall l1 l2 i x,
  Forall2 R l1 l2 -> (forall a, nth_error l1 i = Some a -> forall b, nth_error l2 i = Some b -> R x b) ->
  Forall2 R (updz l1 i x) l2.
Proof. exact (ModelLists.Forall2_updz R). Qed.

Lemma nth_error_nth' {A} : forall (l : list A) i d, (i < length l)%nat -> nth_error l i = Some (nth i l d).
Proof. induction l as [|x l IH]; intros [|i] d H; cbn in *; try lia; auto. apply IH. lia. Qed.
