(* Progress for the session core model: in the space C01 claims (every player connected, honest
   peers that deliver each player's inputs in frame order; any number of spectators, either saving
   mode) no modelled assert fires, whatever the interleaving of API calls and arriving inputs.
   QSg is the invariant of that space, followed call by call through advance_frame; OI says what is queued
   for the remote players and rounds_ok what leaves for them; op_ok and srun_in delimit the space.
   The theorems for dense saving are closed here, those for sparse saving in SessionSparse2.v, those
   for lockstep in SessionLockstep.v. *)
From GGRS Require Import Base Consts Queue QueueProofs QueueTheorems Sync P2P Session SessionProofs.
From Coq Require Import Sorting.Sorted.
From GGRS Require Import LiaSetup.
Open Scope Z_scope.

(* a local player's queue has delay d and never predicts; it holds nothing before the first input, and otherwise
   the frames up to c + d - 1 (the input for frame c has not been registered yet) or up to c + d (it has: the call
   that registered it stalled at the prediction limit, or has not advanced yet).  A remote player's queue has no delay. *)
Definition KI (c d : Z) (k : pkind) (q : queue) (hist : list Z) : Prop :=
  match k with
  | KLocal => q_delay q = d /\ pi_frame (q_pred q) = NULL /\
              ((hist = [] /\ q_last_user q = NULL /\ c = 0) \/
               (hlen hist = c + d /\ q_last_user q = c - 1 /\ 1 <= c) \/
               (hlen hist = c + d + 1 /\ q_last_user q = c))
  | KRemote _ => q_delay q = 0 /\ q_last_user q = hlen hist - 1
  | KSpectator _ => False
  end.

(* what the calls of one advance leave alone *)
Definition p_rest (p p' : p2p) : Prop :=
  ps_nplayers p' = ps_nplayers p /\ ps_maxpred p' = ps_maxpred p /\ ps_sparse p' = ps_sparse p /\
  ps_disc_frame p' = ps_disc_frame p /\ ps_running p' = ps_running p /\ ps_kinds p' = ps_kinds p /\
  ps_spec_handles p' = ps_spec_handles p /\ ps_remotes p' = ps_remotes p /\
  ps_spectators p' = ps_spectators p /\ ps_pending p' = ps_pending p /\ ps_next_spec p' = ps_next_spec p.
Lemma p_rest_refl : forall p, p_rest p p.
Proof. intros p. unfold p_rest. repeat split. Qed.
Lemma p_rest_trans : forall a b c, p_rest a b -> p_rest b c -> p_rest a c.
Proof.
  intros a b c (A1 & A2 & A3 & A4 & A5 & A6 & A7 & A8 & A9 & A10 & A11) (B1 & B2 & B3 & B4 & B5 & B6 & B7 & B8 & B9 & B10 & B11).
  unfold p_rest. rewrite B1, B2, B3, B4, B5, B6, B7, B8, B9, B10, B11. repeat split; assumption.
Qed.

Lemma local_handles_rest : forall p p', p_rest p p' -> local_handles p' = local_handles p.
Proof.
  intros p p' (A & _ & _ & _ & _ & B & C & _). unfold local_handles, kind_at. rewrite A, B, C. reflexivity.
Qed.

Lemma p_rest_kinds : forall p p', p_rest p p' -> ps_kinds p' = ps_kinds p.
Proof. intros p p' H. apply H. Qed.
Lemma p_rest_spectators : forall p p', p_rest p p' -> ps_spectators p' = ps_spectators p.
Proof. intros p p' H. apply H. Qed.
Lemma p_rest_next_spec : forall p p', p_rest p p' -> ps_next_spec p' = ps_next_spec p.
Proof. intros p p' H. apply H. Qed.
Lemma p_rest_pending : forall p p', p_rest p p' -> ps_pending p' = ps_pending p.
Proof. intros p p' H. apply H. Qed.

Lemma nth_connected : forall st h, connected st -> cs_disc (nth h st cs_default) = false.
Proof.
  induction st as [|s st IH]; intros [|h] H; cbn; try reflexivity; inversion H; subst; auto.
Qed.

Lemma update_disconnects_noop : forall p,
  connected (ps_status p) -> Forall (fun e => connected (ev_status e)) (ps_remotes p) ->
  update_player_disconnects p = Ok p.
Proof.
  intros p Hc Hg. unfold update_player_disconnects.
  generalize (zrange_from 0 (Z.to_nat (ps_nplayers p))) as hs.
  induction hs as [|h hs IH]; cbn [fold_left]; [reflexivity|]. cbn [res_bind].
  assert (forallb (fun e => negb (cs_disc (nth (Z.to_nat h) (ev_status e) cs_default))) (filter ev_running (ps_remotes p)) = true) as ->.
  { apply forallb_forall. intros e He. apply filter_In in He. destruct He as [He _].
    rewrite Forall_forall in Hg. rewrite (nth_connected _ _ (Hg e He)). reflexivity. }
  cbn [negb andb]. exact IH.
Qed.

Lemma cf_fold : forall st acc, connected st ->
  let m := fold_left (fun acc c => if cs_disc c then acc else Z.min acc (cs_last c)) st acc in
  m <= acc /\ Forall (fun c => m <= cs_last c) st /\ (m = acc \/ Exists (fun c => m = cs_last c) st).
Proof.
  induction st as [|s st IH]; intros acc Hc; cbn [fold_left].
  - split; [lia|]. split; [constructor|left; reflexivity].
  - inversion Hc as [|? ? Hs Hc']; subst. rewrite Hs.
    destruct (IH (Z.min acc (cs_last s)) Hc') as (A & B & C).
    split; [lia|]. split; [constructor; [lia|exact B]|].
    destruct C as [C|C]; [|right; right; exact C].
    destruct (Z.le_ge_cases acc (cs_last s)); [left; lia|right; left; lia].
Qed.

Lemma confirmed_frame_spec : forall p, connected (ps_status p) -> ps_status p <> [] ->
  Forall (fun c => cs_last c < I32MAX) (ps_status p) ->
  exists cf, confirmed_frame p = Ok cf /\ Forall (fun c => cf <= cs_last c) (ps_status p) /\
             Exists (fun c => cf = cs_last c) (ps_status p).
Proof.
  intros p Hc Hne Hb. unfold confirmed_frame.
  destruct (cf_fold (ps_status p) I32MAX Hc) as (A & B & C).
  set (m := fold_left _ _ _) in *.
  assert (m < I32MAX).
  { destruct (ps_status p) as [|s st]; [congruence|]. inversion B; subst. inversion Hb; subst. lia. }
  assert ((m <? I32MAX) = true) as -> by lia.
  exists m. split; [reflexivity|]. split; [exact B|]. destruct C as [C|C]; [lia|exact C].
Qed.

Lemma nth_error_some_len {A B} : forall (l1 : list A) (l2 : list B) i b,
  length l1 = length l2 -> nth_error l2 i = Some b -> exists a, nth_error l1 i = Some a.
Proof.
  intros l1 l2 i b Hl Hn. destruct (nth_error l1 i) eqn:E; [eauto|].
  apply nth_error_None in E. assert (nth_error l2 i <> None) as B7 by congruence.
  apply nth_error_Some in B7. lia.
Qed.

Lemma with_disc_null : forall p, ps_disc_frame p = NULL -> with_disc_frame p NULL = p.
Proof. destruct p; cbn; intros ->; reflexivity. Qed.

Section ProgressA.
Variable predict : Z -> Z.

Lemma resim_go_shape : forall n i p mc o p' o',
  resim_go predict n i p mc o = Ok (p', o') -> p' = with_sync p (ps_sync p').
Proof.
  intros n i p mc o p' o' H.
  refine (resim_go_rule predict mc (fun _ q _ => q = with_sync p (ps_sync q)) n i _ p o p' o' H _).
  - intros j q oq s1 ins s2 o2 _ Hq _ _. rewrite Hq. reflexivity.
  - symmetry. apply with_sync_self.
Qed.

Lemma adjust_shape : forall p fi mc o p' o',
  adjust_gamestate predict p fi mc o = Ok (p', o') -> p' = with_sync p (ps_sync p').
Proof.
  intros p fi mc o p' o' E. apply adjust_gamestate_ok in E. destruct E as (_ & _ & _ & _ & Er & _).
  apply resim_go_shape in Er. rewrite Er. reflexivity.
Qed.

Lemma first_rollback_progress : forall p gs cf o,
  connected (ps_status p) -> length (ps_status p) = length (s_queues (ps_sync p)) -> ps_disc_frame p = NULL ->
  QsI (s_current (ps_sync p)) (s_last_confirmed (ps_sync p)) (s_queues (ps_sync p)) gs ->
  -1 <= s_last_confirmed (ps_sync p) ->
  (forall fi, fi = csc_fold (s_queues (ps_sync p)) NULL -> s_last_confirmed (ps_sync p) < fi <= s_current (ps_sync p) - 1 ->
     s_last_confirmed (ps_sync p) <= frame_to_load p fi <= fi /\ 0 <= frame_to_load p fi /\
     s_current (ps_sync p) - s_maxpred (ps_sync p) <= frame_to_load p fi /\
     cell_frame (ps_sync p) (frame_to_load p fi) = frame_to_load p fi) ->
  exists p1 o1, first_rollback predict p cf o = Ok (p1, o1) /\ rolled (s_last_confirmed (ps_sync p)) p gs p1 /\
    s_current (ps_sync p1) = s_current (ps_sync p).
Proof.
  intros p gs cf o Hcon Hlen Hdf HQ HL Hload. unfold first_rollback.
  rewrite check_simulation_consistency_eq, Hdf.
  destruct (csc_fold_QsI _ _ _ _ NULL HQ (or_introl eq_refl)) as [(Hr & _ & Hcl)|Hr].
  - rewrite Hr, Z.eqb_refl. exists p, o. split; [reflexivity|]. split; [apply rolled_refl; assumption|reflexivity].
  - set (fi := csc_fold (s_queues (ps_sync p)) NULL) in *.
    assert ((fi =? NULL) = false) as -> by (unfold NULL in *; lia).
    destruct (Hload fi eq_refl Hr) as (L1 & L2 & L3 & L4).
    destruct (adjust_progress predict p gs (s_last_confirmed (ps_sync p)) fi cf o Hcon Hlen HQ HL L1 ltac:(lia) L3 L4)
      as (p2 & o2 & Ea & Hr2 & Hc2).
    rewrite Ea. cbn [res_bind]. rewrite with_disc_null by (rewrite (ro_shape _ _ _ _ Hr2); exact Hdf).
    exists p2, o2. auto.
Qed.

End ProgressA.

(* the host's spectator broadcast: when there are spectators, the next frame to send is past the last
   confirmed frame and not past any player's held inputs *)
Definition spec_ok (p : p2p) (gs : list ghost) : Prop :=
  ps_spectators p <> [] ->
  0 <= ps_next_spec p /\ s_last_confirmed (ps_sync p) + 1 <= ps_next_spec p /\
  Forall (fun g : ghost => ps_next_spec p <= hlen (fst g)) gs.

Definition hlens_grow (gs gs' : list ghost) : Prop :=
  forall h g', nth_error gs' h = Some g' -> exists g, nth_error gs h = Some g /\ hlen (fst g) <= hlen (fst g').

Lemma spec_ok_grow : forall p gs p' gs',
  spec_ok p gs -> ps_spectators p' = ps_spectators p -> ps_next_spec p' = ps_next_spec p ->
  s_last_confirmed (ps_sync p') = s_last_confirmed (ps_sync p) -> hlens_grow gs gs' -> spec_ok p' gs'.
Proof.
  intros p gs p' gs' H E1 E2 E3 Hg Hne. rewrite E1 in Hne. destruct (H Hne) as (A & B & C).
  rewrite E2, E3. split; [exact A|]. split; [exact B|].
  apply Forall_forall. intros g' Hin. apply In_nth_error in Hin. destruct Hin as (h & Hh).
  destruct (Hg h g' Hh) as (g & Hg1 & Hg2). rewrite Forall_forall in C. pose proof (C g (nth_error_In _ _ Hg1)). lia.
Qed.
Lemma grow_refl : forall gs, hlens_grow gs gs.
Proof. intros gs h g' H. exists g'. split; [exact H|lia]. Qed.

(* w = max_prediction, d = the input delay of the local players; gs = per player (history, low).
   qs_frames, third part: the gate of advance_rollback_frame keeps the current frame within w of the last confirmed
   one; Z.max 1 w because in lockstep (w = 0) the current frame may be one past the last confirmed one.
   qs_d: a local queue spans the frames low .. c + d with L - 1 <= low (qi_low), at most Z.max 1 w + d + 2 slots. *)
Record QSg (sp : bool) (w d : Z) (p : p2p) (gs : list ghost) : Prop := {
  qs_w : 0 <= w /\ ps_maxpred p = w /\ s_maxpred (ps_sync p) = w;
  qs_d : 0 <= d /\ Z.max 1 w + d + 3 <= QLEN;
  qs_mode : ps_running p = true /\ ps_sparse p = sp /\ ps_disc_frame p = NULL;
  qs_n : Z.of_nat (length gs) = ps_nplayers p /\ 0 < ps_nplayers p /\ length (ps_kinds p) = length gs /\
         length (ps_status p) = length gs;
  qs_conn : connected (ps_status p);
  qs_gossip : Forall (fun e => connected (ev_status e)) (ps_remotes p);
  qs_qs : QsI (s_current (ps_sync p)) (s_last_confirmed (ps_sync p)) (s_queues (ps_sync p)) gs;
  qs_last : Forall2 (fun st g => cs_last st = hlen (fst g) - 1) (ps_status p) gs;
  qs_frames : -1 <= s_last_confirmed (ps_sync p) <= s_current (ps_sync p) /\ 0 <= s_current (ps_sync p) /\
              s_current (ps_sync p) <= Z.max 0 (s_last_confirmed (ps_sync p)) + Z.max 1 w;
  qs_kinds : forall h k q gh, nth_error (ps_kinds p) h = Some k -> nth_error (s_queues (ps_sync p)) h = Some q ->
             nth_error gs h = Some gh -> KI (s_current (ps_sync p)) d k q (fst gh);
  qs_pending : forall h pi, assoc_get (ps_pending p) h = Some pi -> pi_frame pi = s_current (ps_sync p);
  qs_spec : spec_ok p gs;
}.
Arguments qs_w {sp} w d p gs _.
Arguments qs_d {sp} w d p gs _.
Arguments qs_mode {sp} w d p gs _.
Arguments qs_n {sp} w d p gs _.
Arguments qs_conn {sp} w d p gs _.
Arguments qs_gossip {sp} w d p gs _.
Arguments qs_qs {sp} w d p gs _.
Arguments qs_last {sp} w d p gs _.
Arguments qs_frames {sp} w d p gs _.
Arguments qs_kinds {sp} w d p gs _.
Arguments qs_pending {sp} w d p gs _.
Arguments qs_spec {sp} w d p gs _.
(* dense saving (the mode of the unconditional theorems below); sparse saving: SessionSparse2.v *)
Notation QS := (QSg false).

(* QSg reads the session through these fields only: the endpoints' views and the pending inputs may
   change as long as they stay well formed, the outgoing inputs may change freely *)
Lemma QS_ext : forall sp w d p p' gs, QSg sp w d p gs ->
  ps_sync p' = ps_sync p -> ps_maxpred p' = ps_maxpred p -> ps_running p' = ps_running p -> ps_sparse p' = ps_sparse p ->
  ps_disc_frame p' = ps_disc_frame p -> ps_nplayers p' = ps_nplayers p -> ps_kinds p' = ps_kinds p ->
  ps_status p' = ps_status p -> ps_spectators p' = ps_spectators p -> ps_next_spec p' = ps_next_spec p ->
  Forall (fun e => connected (ev_status e)) (ps_remotes p') ->
  (forall h pi, assoc_get (ps_pending p') h = Some pi -> pi_frame pi = s_current (ps_sync p)) ->
  QSg sp w d p' gs.
Proof.
  intros sp w d p p' gs [A B C D E F G H I J K L] E1 E2 E3 E4 E5 E6 E7 E8 E9 E10 Hg Hp.
  constructor; unfold spec_ok; rewrite ?E1, ?E2, ?E3, ?E4, ?E5, ?E6, ?E7, ?E8, ?E9, ?E10; assumption.
Qed.

Lemma QS_outgoing : forall sp w d p gs X Y, QSg sp w d p gs -> QSg sp w d (with_outgoing p X Y) gs.
Proof. intros sp w d p gs X Y H. eapply QS_ext; [exact H|reflexivity..|exact (qs_gossip _ _ _ _ H)|exact (qs_pending _ _ _ _ H)]. Qed.

Lemma QS_nth : forall sp w d p gs h gh, QSg sp w d p gs -> nth_error gs h = Some gh ->
  exists q st, nth_error (s_queues (ps_sync p)) h = Some q /\ nth_error (ps_status p) h = Some st /\
    QI (s_current (ps_sync p)) (s_last_confirmed (ps_sync p)) q (fst gh) (snd gh) /\
    cs_last st = hlen (fst gh) - 1 /\ cs_disc st = false.
Proof.
  intros sp w d p gs h gh H Hg. destruct (QsI_nth _ _ _ _ h gh (qs_qs _ _ _ _ H) Hg) as (q & Eq & Hq).
  destruct (qs_n _ _ _ _ H) as (_ & _ & _ & Hn).
  destruct (nth_error_some_len (ps_status p) gs h gh Hn Hg) as (st & Es).
  exists q, st. split; [exact Eq|]. split; [exact Es|]. split; [exact Hq|].
  split; [exact (Forall2_nth _ _ _ _ _ _ (qs_last _ _ _ _ H) Es Hg)|].
  pose proof (qs_conn _ _ _ _ H) as Hc. unfold connected in Hc. rewrite Forall_forall in Hc. apply Hc. eapply nth_error_In. exact Es.
Qed.

Lemma grow_updz : forall (gs : list ghost) i hist low hist' low',
  nth_error gs i = Some (hist, low) -> hlen hist <= hlen hist' -> hlens_grow gs (updz gs i (hist', low')).
Proof.
  intros gs i hist low hist' low' Hi Hle h g' H.
  assert (Hl : (i < length gs)%nat) by (apply nth_error_Some; congruence).
  destruct (Nat.eq_dec i h) as [<-|Hne].
  - rewrite nth_error_updz_same in H by exact Hl. injection H as <-. exists (hist, low). split; [exact Hi|exact Hle].
  - rewrite nth_error_updz_other in H by exact Hne. exists g'. split; [exact H|lia].
Qed.

Lemma assoc_get_put {A} : forall (l : list (Z * A)) k v k',
  assoc_get (assoc_put l k v) k' = if k =? k' then Some v else assoc_get l k'.
Proof.
  induction l as [|[k0 v0] l IH]; intros k v k'; cbn [assoc_put assoc_get].
  - destruct (Z.eqb_spec k k'); reflexivity.
  - destruct (Z.eqb_spec k k0) as [E0|E0].
    + subst k0. cbn [assoc_get]. destruct (Z.eqb_spec k k'); reflexivity.
    + destruct (Z.ltb_spec k k0).
      * cbn [assoc_get]. destruct (Z.eqb_spec k k'); reflexivity.
      * cbn [assoc_get]. rewrite IH. destruct (Z.eqb_spec k0 k') as [E1|E1]; [|reflexivity].
        destruct (Z.eqb_spec k k'); [congruence|reflexivity].
Qed.

Definition out_only (p p' : p2p) : Prop := p' = with_outgoing p (ps_outgoing p') (ps_last_sent_out p').
Lemma out_only_refl : forall p, out_only p p.
Proof. intros p. unfold out_only. destruct p; reflexivity. Qed.
Lemma out_only_trans : forall a b c, out_only a b -> out_only b c -> out_only a c.
Proof. unfold out_only. intros a b c H1 H2. rewrite H2. rewrite H1 at 1. destruct a; reflexivity. Qed.
Lemma out_only_with : forall p X Y, out_only p (with_outgoing p X Y).
Proof. intros. unfold out_only. destruct p; reflexivity. Qed.
Lemma QS_out_only : forall sp w d p p' gs, QSg sp w d p gs -> out_only p p' -> QSg sp w d p' gs.
Proof. intros sp w d p p' gs H E. rewrite E. apply QS_outgoing. exact H. Qed.

Lemma queue_outgoing_ok : forall p h i, pi_frame i <> NULL -> exists p', queue_outgoing p h i = Ok p' /\ out_only p p'.
Proof.
  intros p h i Hn. rewrite queue_outgoing_eq. assert ((pi_frame i =? NULL) = false) as -> by lia.
  exists (queued p h i). split; [reflexivity|]. unfold queued. destruct (ps_remotes p); [apply out_only_refl|apply out_only_with].
Qed.

Lemma queue_blanks_ok : forall n p h f, 0 <= f -> exists p', queue_blanks n p h f = Ok p' /\ out_only p p'.
Proof.
  induction n as [|n IH]; intros p h f Hf; cbn [queue_blanks].
  - exists p. split; [reflexivity|apply out_only_refl].
  - destruct (queue_outgoing_ok p h (blank f)) as (p1 & E1 & O1); [cbn; unfold NULL; lia|].
    rewrite E1. cbn [res_bind]. destruct (IH p1 h (f + 1) ltac:(lia)) as (p2 & E2 & O2).
    exists p2. split; [exact E2|eapply out_only_trans; eassumption].
Qed.

Lemma find_assoc {A} : forall (l : list (Z * A)) P f m, find P l = Some (f, m) -> exists m', assoc_get l f = Some m'.
Proof.
  induction l as [|[k v] l IH]; intros P f m H; cbn [find assoc_get] in *; [discriminate|].
  destruct (P (k, v)).
  - injection H as -> ->. rewrite Z.eqb_refl. eauto.
  - destruct (Z.eqb_spec k f); [eauto|]. eapply IH. exact H.
Qed.

Lemma send_ready_go_ok : forall n p locals o, exists p' o', send_ready_go n p locals o = Ok (p', o') /\ out_only p p'.
Proof.
  induction n as [|n IH]; intros p locals o; cbn [send_ready_go].
  - exists p, o. split; [reflexivity|apply out_only_refl].
  - destruct (next_complete p locals) as [f|] eqn:En.
    + assert (exists m, assoc_get (ps_outgoing p) f = Some m) as (m & Em).
      { unfold next_complete in En. destruct (ps_last_sent_out p =? NULL).
        - destruct (find _ _) as [[f0 m0]|] eqn:Ef; [|discriminate]. injection En as <-. eapply find_assoc. exact Ef.
        - destruct (assoc_get _ _) as [m0|] eqn:Ea; [|discriminate]. destruct (complete locals m0); [|discriminate].
          injection En as <-. eauto. }
      rewrite Em.
      match goal with |- context [send_ready_go n ?P locals ?O] => destruct (IH P locals O) as (p' & o' & E & Oo) end.
      exists p', o'. split; [exact E|]. eapply out_only_trans; [apply out_only_with|exact Oo].
    + exists p, o. split; [reflexivity|apply out_only_refl].
Qed.

Lemma send_ready_outgoing_ok : forall p o, exists p' o', send_ready_outgoing p o = Ok (p', o') /\ out_only p p'.
Proof.
  intros p o. unfold send_ready_outgoing. destruct (ps_remotes p).
  - exists p, o. split; [reflexivity|apply out_only_refl].
  - destruct (local_handles p).
    + exists p, o. split; [reflexivity|apply out_only_refl].
    + apply send_ready_go_ok.
Qed.

Lemma local_handles_spec : forall p h, ps_nplayers p = Z.of_nat (length (ps_kinds p)) ->
  (In h (local_handles p) <-> 0 <= h < ps_nplayers p /\ nth_error (ps_kinds p) (Z.to_nat h) = Some KLocal).
Proof.
  intros p h Hn. unfold local_handles. rewrite filter_In, zrange_in. unfold kind_at.
  split.
  - intros (Hr & Hk). assert ((h <? 0) = false) as E1 by lia. assert ((h <? ps_nplayers p) = true) as E2 by lia.
    rewrite E1, E2 in Hk. split; [lia|]. destruct (nth_error (ps_kinds p) (Z.to_nat h)) as [[| |]|]; try discriminate. reflexivity.
  - intros (Hr & Hk). split; [lia|]. assert ((h <? 0) = false) as -> by lia. assert ((h <? ps_nplayers p) = true) as -> by lia.
    rewrite Hk. reflexivity.
Qed.

Lemma local_handles_nodup : forall p, NoDup (local_handles p).
Proof. intros p. unfold local_handles. apply NoDup_filter. apply zrange_nodup. Qed.

Definition keys_sorted {A} (l : list (Z * A)) : Prop := StronglySorted (fun a b => fst a < fst b) l.

Lemma assoc_get_above {A} : forall (l : list (Z * A)) k, Forall (fun b => k < fst b) l -> assoc_get l k = None.
Proof.
  induction l as [|[k0 v0] l IH]; intros k H; cbn [assoc_get]; [reflexivity|].
  inversion H as [|? ? H1 H2]; subst. cbn [fst] in H1. destruct (Z.eqb_spec k0 k); [lia|]. apply IH. exact H2.
Qed.

Lemma assoc_put_Forall {A} (P : Z * A -> Prop) : forall l k v, Forall P l -> P (k, v) -> Forall P (assoc_put l k v).
Proof.
  induction l as [|[k0 v0] l IH]; intros k v H Hk; cbn [assoc_put].
  - constructor; [exact Hk|constructor].
  - inversion H as [|? ? H1 H2]; subst.
    destruct (k =? k0); [constructor; assumption|].
    destruct (k <? k0); [constructor; [exact Hk|exact H]|].
    constructor; [exact H1|apply IH; assumption].
Qed.

Lemma assoc_put_sorted {A} : forall (l : list (Z * A)) k v, keys_sorted l -> keys_sorted (assoc_put l k v).
Proof.
  unfold keys_sorted. induction l as [|[k0 v0] l IH]; intros k v H; cbn [assoc_put].
  - constructor; constructor.
  - inversion H as [|? ? H1 H2]; subst.
    destruct (Z.eqb_spec k k0) as [->|Hne]; [constructor; assumption|].
    destruct (Z.ltb_spec k k0).
    + constructor; [exact H|]. constructor; [cbn [fst]; lia|].
      eapply Forall_impl; [|exact H2]. intros b Hb. cbn [fst] in *. lia.
    + constructor; [apply IH; exact H1|]. apply assoc_put_Forall; [exact H2|cbn [fst]; lia].
Qed.

Lemma assoc_del_Forall {A} (P : Z * A -> Prop) : forall l k, Forall P l -> Forall P (assoc_del l k).
Proof.
  induction l as [|[k0 v0] l IH]; intros k H; cbn [assoc_del]; [constructor|].
  inversion H as [|? ? H1 H2]; subst. destruct (k0 =? k); [exact H2|]. constructor; [exact H1|apply IH; exact H2].
Qed.

Lemma assoc_del_sorted {A} : forall (l : list (Z * A)) k, keys_sorted l -> keys_sorted (assoc_del l k).
Proof.
  unfold keys_sorted. induction l as [|[k0 v0] l IH]; intros k H; cbn [assoc_del]; [constructor|].
  inversion H as [|? ? H1 H2]; subst. destruct (k0 =? k); [exact H1|].
  constructor; [apply IH; exact H1|apply assoc_del_Forall; exact H2].
Qed.

Lemma assoc_get_del {A} : forall (l : list (Z * A)) k k', keys_sorted l ->
  assoc_get (assoc_del l k) k' = if k =? k' then None else assoc_get l k'.
Proof.
  unfold keys_sorted. induction l as [|[k0 v0] l IH]; intros k k' H; cbn [assoc_del assoc_get].
  - destruct (k =? k'); reflexivity.
  - inversion H as [|? ? H1 H2]; subst.
    destruct (Z.eqb_spec k0 k) as [->|Hne].
    + destruct (Z.eqb_spec k k') as [<-|Hne']; [apply assoc_get_above; exact H2|reflexivity].
    + cbn [assoc_get]. destruct (Z.eqb_spec k0 k') as [->|Hne'].
      * destruct (Z.eqb_spec k k'); [congruence|reflexivity].
      * apply IH. exact H1.
Qed.

Lemma find_first_sorted {A} : forall (l : list (Z * A)) P f m, keys_sorted l -> find P l = Some (f, m) ->
  assoc_get l f = Some m /\ P (f, m) = true /\
  forall f' m', f' < f -> assoc_get l f' = Some m' -> P (f', m') = false.
Proof.
  unfold keys_sorted. induction l as [|[k0 v0] l IH]; intros P f m H Hf; cbn [find assoc_get] in *; [discriminate|].
  inversion H as [|? ? H1 H2]; subst.
  destruct (P (k0, v0)) eqn:EP.
  - injection Hf as -> ->. rewrite Z.eqb_refl. split; [reflexivity|]. split; [exact EP|].
    intros f' m' Hlt Hg. destruct (Z.eqb_spec f f'); [lia|]. rewrite assoc_get_above in Hg; [discriminate|].
    eapply Forall_impl; [|exact H2]. intros b Hb. cbn [fst] in *. lia.
  - destruct (IH P f m H1 Hf) as (G1 & G2 & G3).
    assert (Hk : k0 < f).
    { clear - G1 H2. induction l as [|[k1 v1] l IHl]; cbn [assoc_get] in G1; [discriminate|].
      inversion H2 as [|? ? A0 B0]; subst. cbn [fst] in A0. destruct (Z.eqb_spec k1 f); [lia|]. apply IHl; assumption. }
    destruct (Z.eqb_spec k0 f); [lia|]. split; [exact G1|]. split; [exact G2|].
    intros f' m' Hlt Hg. destruct (Z.eqb_spec k0 f') as [<-|Hne]; [injection Hg as <-; exact EP|].
    eapply G3; eassumption.
Qed.

Definition out_entry (p : p2p) (f h : Z) : option pinput :=
  match assoc_get (ps_outgoing p) f with Some m => assoc_get m h | None => None end.

(* the invariant of outgoing_local_inputs / last_sent_outgoing_input_frame against the input histories:
   for every local player exactly the frames above the last one sent that the player's queue holds are
   queued, each with the value the queue holds for it *)
Record OI (p : p2p) (gs : list ghost) : Prop := {
  oi_sorted : keys_sorted (ps_outgoing p);
  oi_last : NULL <= ps_last_sent_out p;
  oi_keys : forall f m, assoc_get (ps_outgoing p) f = Some m -> ps_last_sent_out p < f;
  oi_local : forall h gh, In h (local_handles p) -> nth_error gs (Z.to_nat h) = Some gh ->
     ps_last_sent_out p < hlen (fst gh) /\
     forall f, ps_last_sent_out p < f ->
       out_entry p f h = if f <? hlen (fst gh) then Some (mkpi f (hval (fst gh) f)) else None;
  oi_below : forall f m, assoc_get (ps_outgoing p) f = Some m ->
     exists h gh, In h (local_handles p) /\ nth_error gs (Z.to_nat h) = Some gh /\ f < hlen (fst gh) }.
Definition OIg (p : p2p) (gs : list ghost) : Prop := ps_remotes p <> [] -> OI p gs.

Lemma OI_same_local : forall p p' gs gs', OI p gs -> ps_outgoing p' = ps_outgoing p ->
  ps_last_sent_out p' = ps_last_sent_out p -> local_handles p' = local_handles p ->
  (forall h, In h (local_handles p) ->
     option_map fst (nth_error gs' (Z.to_nat h)) = option_map fst (nth_error gs (Z.to_nat h))) -> OI p' gs'.
Proof.
  intros p p' gs gs' [A B C D F] E1 E2 E3 E4. unfold ghost in *.
  constructor; unfold out_entry in *; rewrite ?E1, ?E2, ?E3; try assumption.
  - intros h gh' Hin Hg. pose proof (E4 h Hin) as X. unfold ghost in *. rewrite Hg in X. cbn [option_map] in X.
    destruct (nth_error gs (Z.to_nat h)) as [gh|] eqn:G0; [|discriminate]. cbn [option_map] in X.
    injection X as X. rewrite X. exact (D h gh Hin G0).
  - intros f m G. destruct (F f m G) as (h & gh & Hin & Hg & Hlt). pose proof (E4 h Hin) as X. unfold ghost in *. rewrite Hg in X.
    cbn [option_map] in X. destruct (nth_error gs' (Z.to_nat h)) as [gh'|] eqn:G0; [|discriminate]. cbn [option_map] in X.
    injection X as X. exists h, gh'. split; [exact Hin|]. split; [exact G0|]. rewrite X. exact Hlt.
Qed.

Lemma OI_same : forall p p' gs gs', OI p gs -> ps_outgoing p' = ps_outgoing p -> ps_last_sent_out p' = ps_last_sent_out p ->
  local_handles p' = local_handles p -> map fst gs' = map fst gs -> OI p' gs'.
Proof.
  intros p p' gs gs' H E1 E2 E3 E4. apply (OI_same_local p p' gs gs' H E1 E2 E3). intros h _.
  pose proof (f_equal (fun l => nth_error l (Z.to_nat h)) E4) as X. cbv beta in X. unfold ghost in *.
  rewrite !nth_error_map in X. exact X.
Qed.

Lemma local_handles_ge : forall p h, In h (local_handles p) -> 0 <= h.
Proof. intros p h H. unfold local_handles in H. apply filter_In in H. destruct H as [H _]. apply zrange_ge in H. exact H. Qed.

Lemma queue_outgoing_entry : forall p h i p', ps_remotes p <> [] -> queue_outgoing p h i = Ok p' ->
  out_only p p' /\ ps_last_sent_out p' = ps_last_sent_out p /\
  (keys_sorted (ps_outgoing p) -> keys_sorted (ps_outgoing p')) /\
  (forall f m', assoc_get (ps_outgoing p') f = Some m' -> f = pi_frame i \/ exists m, assoc_get (ps_outgoing p) f = Some m) /\
  forall f' h', out_entry p' f' h' = if (f' =? pi_frame i) && (h' =? h) then Some i else out_entry p f' h'.
Proof.
  intros p h i p' Hr H. rewrite queue_outgoing_eq in H. destruct (pi_frame i =? NULL); [discriminate|].
  injection H as <-. unfold queued. destruct (ps_remotes p) eqn:Er; [congruence|].
  split; [apply out_only_with|]. split; [reflexivity|]. cbn [with_outgoing ps_outgoing].
  split; [apply assoc_put_sorted|]. split.
  - intros f m' G. rewrite assoc_get_put in G. destruct (Z.eqb_spec (pi_frame i) f); [left; congruence|right; eauto].
  - intros f' h'. unfold out_entry. cbn [with_outgoing ps_outgoing]. rewrite assoc_get_put.
    destruct (Z.eqb_spec (pi_frame i) f') as [<-|Hne].
    + rewrite Z.eqb_refl. cbn [andb]. rewrite assoc_get_put. destruct (Z.eqb_spec h h') as [<-|Hh].
      * rewrite Z.eqb_refl. reflexivity.
      * destruct (Z.eqb_spec h' h); [congruence|]. destruct (assoc_get (ps_outgoing p) (pi_frame i)); reflexivity.
    + destruct (Z.eqb_spec f' (pi_frame i)); [congruence|]. reflexivity.
Qed.

Lemma queue_blanks_entry : forall n p h f0 p', ps_remotes p <> [] -> queue_blanks n p h f0 = Ok p' ->
  out_only p p' /\ ps_last_sent_out p' = ps_last_sent_out p /\
  (keys_sorted (ps_outgoing p) -> keys_sorted (ps_outgoing p')) /\
  (forall f m', assoc_get (ps_outgoing p') f = Some m' -> f0 <= f < f0 + Z.of_nat n \/ exists m, assoc_get (ps_outgoing p) f = Some m) /\
  forall f' h', out_entry p' f' h' = if (f0 <=? f') && (f' <? f0 + Z.of_nat n) && (h' =? h) then Some (blank f') else out_entry p f' h'.
Proof.
  induction n as [|n IH]; intros p h f0 p' Hr H; cbn [queue_blanks] in H.
  - injection H as <-. split; [apply out_only_refl|]. split; [reflexivity|]. split; [tauto|]. split; [eauto|].
    intros f' h'. assert ((f0 <=? f') && (f' <? f0 + Z.of_nat 0) = false) as -> by lia. reflexivity.
  - destruct (queue_outgoing p h (blank f0)) as [p1| |] eqn:E1; cbn [res_bind] in H; try discriminate.
    destruct (queue_outgoing_entry p h (blank f0) p1 Hr E1) as (O1 & L1 & S1 & K1 & En1).
    assert (Hr1 : ps_remotes p1 <> []) by (rewrite O1; exact Hr).
    destruct (IH p1 h (f0 + 1) p' Hr1 H) as (O2 & L2 & S2 & K2 & En2).
    split; [eapply out_only_trans; eassumption|]. split; [congruence|]. split; [tauto|]. split.
    + intros f m' G. destruct (K2 f m' G) as [R|(m & G1)]; [left; lia|].
      destruct (K1 f m G1) as [R|R]; [left; cbn [blank pi_frame] in R; lia|right; exact R].
    + intros f' h'. rewrite En2, En1. cbn [blank pi_frame].
      destruct (Z.eqb_spec h' h) as [->|Hh]; rewrite ?andb_false_r, ?andb_true_r; [|reflexivity].
      destruct (Z.eqb_spec f' f0) as [->|Hf].
      * assert ((f0 + 1 <=? f0) = false) as -> by lia. assert ((f0 <=? f0) && (f0 <? f0 + Z.of_nat (S n)) = true) as -> by lia. reflexivity.
      * destruct ((f0 + 1 <=? f') && (f' <? f0 + 1 + Z.of_nat n)) eqn:E.
        -- assert ((f0 <=? f') && (f' <? f0 + Z.of_nat (S n)) = true) as -> by lia. reflexivity.
        -- assert ((f0 <=? f') && (f' <? f0 + Z.of_nat (S n)) = false) as -> by lia. reflexivity.
Qed.

Lemma hval_app_l : forall hist ext f, 0 <= f < hlen hist -> hval (hist ++ ext) f = hval hist f.
Proof. intros hist ext f H. unfold hval, hlen in *. apply app_nth1. lia. Qed.

(* one player's history grows by [ext]; exactly the new frames are queued for it *)
Lemma OI_extend : forall p p' gs h hist low ext,
  OI p gs -> In h (local_handles p) -> nth_error gs (Z.to_nat h) = Some (hist, low) ->
  local_handles p' = local_handles p -> ps_last_sent_out p' = ps_last_sent_out p ->
  keys_sorted (ps_outgoing p') ->
  (forall f m', assoc_get (ps_outgoing p') f = Some m' ->
     hlen hist <= f < hlen hist + hlen ext \/ exists m, assoc_get (ps_outgoing p) f = Some m) ->
  (forall f' h', out_entry p' f' h' =
     if (hlen hist <=? f') && (f' <? hlen hist + hlen ext) && (h' =? h) then Some (mkpi f' (hval (hist ++ ext) f')) else out_entry p f' h') ->
  OI p' (updz gs (Z.to_nat h) (hist ++ ext, low)).
Proof.
  intros p p' gs h hist low ext [A B C D F] Hin Hg El Es Hso Hk He.
  destruct (D h (hist, low) Hin Hg) as (D1 & D2). cbn [fst] in D1, D2.
  pose proof (local_handles_ge _ _ Hin) as Hh0.
  assert (Hhl : (Z.to_nat h < length gs)%nat) by (apply nth_error_Some; congruence).
  constructor.
  - exact Hso.
  - rewrite Es. exact B.
  - intros f m' G. rewrite Es. destruct (Hk f m' G) as [R|(m & R)]; [lia|eapply C; exact R].
  - intros h0 gh Hin0 Hg0. rewrite El in Hin0. rewrite Es. pose proof (local_handles_ge _ _ Hin0) as Hh00.
    destruct (Z.eq_dec h0 h) as [->|Hne].
    + rewrite nth_error_updz_same in Hg0 by exact Hhl. injection Hg0 as <-. cbn [fst].
      assert (Hla : hlen (hist ++ ext) = hlen hist + hlen ext) by (unfold hlen; rewrite app_length; lia).
      assert (0 <= hlen ext) by (unfold hlen; lia).
      split; [lia|]. intros f Hf. rewrite He, Z.eqb_refl, andb_true_r, (D2 f Hf), Hla.
      destruct (Z.ltb_spec f (hlen hist)).
      * assert ((hlen hist <=? f) = false) as -> by lia. cbn [andb].
        assert ((f <? hlen hist + hlen ext) = true) as -> by lia.
        rewrite hval_app_l by (unfold NULL in *; lia). reflexivity.
      * assert ((hlen hist <=? f) = true) as -> by lia. cbn [andb]. destruct (f <? hlen hist + hlen ext); reflexivity.
    + rewrite nth_error_updz_other in Hg0 by lia.
      destruct (D h0 gh Hin0 Hg0) as (E1 & E2). split; [exact E1|]. intros f Hf. rewrite He.
      destruct (Z.eqb_spec h0 h); [congruence|]. rewrite andb_false_r. apply E2. exact Hf.
  - intros f m' G. rewrite El.
    assert (Hla : hlen (hist ++ ext) = hlen hist + hlen ext) by (unfold hlen; rewrite app_length; lia).
    assert (0 <= hlen ext) by (unfold hlen; lia).
    destruct (Hk f m' G) as [R|(m & R)].
    + exists h, (hist ++ ext, low). split; [exact Hin|]. split; [apply nth_error_updz_same; exact Hhl|]. cbn [fst]. lia.
    + destruct (F f m R) as (h0 & gh0 & Hin0 & Hg0 & Hlt0). pose proof (local_handles_ge _ _ Hin0) as Hh00.
      destruct (Z.eq_dec h0 h) as [->|Hne].
      * rewrite Hg in Hg0. injection Hg0 as <-. cbn [fst] in Hlt0.
        exists h, (hist ++ ext, low). split; [exact Hin|]. split; [apply nth_error_updz_same; exact Hhl|]. cbn [fst]. lia.
      * exists h0, gh0. split; [exact Hin0|]. split; [rewrite nth_error_updz_other by lia; exact Hg0|exact Hlt0].
Qed.

Lemma hval_fill : forall kf v f, 0 <= f <= Z.of_nat kf -> hval (repeat 0 kf ++ [v]) f = if f =? Z.of_nat kf then v else 0.
Proof.
  intros kf v f H. unfold hval. destruct (Z.eqb_spec f (Z.of_nat kf)) as [->|Hne].
  - rewrite Nat2Z.id, app_nth2 by (rewrite repeat_length; lia). rewrite repeat_length, Nat.sub_diag. reflexivity.
  - rewrite app_nth1 by (rewrite repeat_length; lia). apply nth_repeat.
Qed.

(* one round of inputs sent to the remotes: a frame f and, for every local player, the value its queue holds for f *)
Definition round_ok (locals : list Z) (gs : list ghost) (f : Z) (m : list (Z * pinput)) : Prop :=
  forall h gh, In h locals -> nth_error gs (Z.to_nat h) = Some gh ->
    f < hlen (fst gh) /\ assoc_get m h = Some (mkpi f (hval (fst gh) f)).
Definition rounds_ok (locals : list Z) (gs : list ghost) (rounds : list (list (Z * pinput))) : Prop :=
  Forall (fun m => exists f, 0 <= f /\ round_ok locals gs f m) rounds.

Lemma complete_spec : forall locals m, complete locals m = true <-> forall h, In h locals -> exists i, assoc_get m h = Some i.
Proof.
  intros locals m. unfold complete. rewrite forallb_forall. split; intros H h Hin; specialize (H h Hin).
  - destruct (assoc_get m h); [eauto|discriminate].
  - destruct H as (i & ->). reflexivity.
Qed.

Lemma next_complete_spec : forall p gs f, OI p gs -> local_handles p <> [] ->
  (forall h, In h (local_handles p) -> exists gh, nth_error gs (Z.to_nat h) = Some gh) ->
  next_complete p (local_handles p) = Some f ->
  f = ps_last_sent_out p + 1 /\ exists m, assoc_get (ps_outgoing p) f = Some m /\ complete (local_handles p) m = true.
Proof.
  intros p gs f [A B C D F0] Hne Hgs En.
  unfold next_complete in En. destruct (Z.eqb_spec (ps_last_sent_out p) NULL) as [E0|E0].
  - destruct (find _ _) as [[f0 m0]|] eqn:Ef; [|discriminate]. injection En as ->.
    destruct (find_first_sorted _ _ _ _ A Ef) as (G1 & G2 & G3). cbn [snd] in G2.
    split; [|eauto]. pose proof (C _ _ G1) as Hlt.
    destruct (Z.eq_dec f 0) as [->|Hnz]; [unfold NULL in *; lia|exfalso].
    assert (exists h0, In h0 (local_handles p)) as (h0 & Hin0) by (destruct (local_handles p); [congruence|eexists; left; reflexivity]).
    (* frame 0 is queued for every local player too *)
    assert (H0 : forall h, In h (local_handles p) -> out_entry p 0 h <> None).
    { intros h Hin. destruct (Hgs h Hin) as (gh & Hg). destruct (D h gh Hin Hg) as (_ & D2).
      rewrite (D2 0) by (unfold NULL in *; lia).
      rewrite complete_spec in G2. destruct (G2 h Hin) as (i & Gi).
      pose proof (D2 f Hlt) as X. unfold out_entry in X. rewrite G1, Gi in X.
      destruct (Z.ltb_spec f (hlen (fst gh))); [|discriminate].
      assert ((0 <? hlen (fst gh)) = true) as -> by (unfold NULL in *; lia). discriminate. }
    pose proof (H0 h0 Hin0) as X. unfold out_entry in X.
    destruct (assoc_get (ps_outgoing p) 0) as [m'|] eqn:G0; [|congruence].
    assert (Hc : complete (local_handles p) (snd (0, m')) = true).
    { cbn [snd]. rewrite complete_spec. intros h Hin. specialize (H0 h Hin). unfold out_entry in H0. rewrite G0 in H0.
      destruct (assoc_get m' h); [eauto|congruence]. }
    rewrite (G3 0 m' ltac:(unfold NULL in *; lia) G0) in Hc. discriminate.
  - destruct (assoc_get (ps_outgoing p) (ps_last_sent_out p + 1)) as [m0|] eqn:G1; [|discriminate].
    destruct (complete (local_handles p) m0) eqn:Ec; [|discriminate]. injection En as <-. split; [reflexivity|eauto].
Qed.

Lemma OI_sent_one : forall p gs f m, OI p gs -> f = ps_last_sent_out p + 1 ->
  assoc_get (ps_outgoing p) f = Some m -> complete (local_handles p) m = true ->
  round_ok (local_handles p) gs f m /\ OI (with_outgoing p (assoc_del (ps_outgoing p) f) f) gs.
Proof.
  intros p gs f m [A B C D F0] Hf Gm Hcm.
  assert (Hround : round_ok (local_handles p) gs f m).
  { intros h gh Hin Hg. destruct (D h gh Hin Hg) as (_ & D2). pose proof (D2 f ltac:(lia)) as X. unfold out_entry in X. rewrite Gm in X.
    rewrite complete_spec in Hcm. destruct (Hcm h Hin) as (i & Gi). rewrite Gi in X.
    destruct (Z.ltb_spec f (hlen (fst gh))); [|discriminate]. split; [assumption|]. rewrite Gi. exact X. }
  split; [exact Hround|].
  constructor; cbn [with_outgoing ps_outgoing ps_last_sent_out].
  - apply assoc_del_sorted. exact A.
  - lia.
  - intros f' m' G. rewrite assoc_get_del in G by exact A. destruct (Z.eqb_spec f f'); [discriminate|]. pose proof (C _ _ G). lia.
  - intros h gh Hin Hg. change (local_handles (with_outgoing p (assoc_del (ps_outgoing p) f) f)) with (local_handles p) in Hin.
    destruct (Hround h gh Hin Hg) as (R1 & _). split; [exact R1|].
    intros f' Hf'. destruct (D h gh Hin Hg) as (_ & D2). rewrite <- (D2 f') by lia.
    unfold out_entry. cbn [with_outgoing ps_outgoing]. rewrite assoc_get_del by exact A.
    destruct (Z.eqb_spec f f'); [lia|reflexivity].
  - intros f' m' G. rewrite assoc_get_del in G by exact A. destruct (Z.eqb_spec f f'); [discriminate|]. exact (F0 _ _ G).
Qed.

Lemma send_ready_go_out : forall n p o p' o' gs,
  send_ready_go n p (local_handles p) o = Ok (p', o') -> OI p gs -> local_handles p <> [] ->
  (forall h, In h (local_handles p) -> exists gh, nth_error gs (Z.to_nat h) = Some gh) ->
  OI p' gs /\ out_only p p' /\ exists rounds, o_remote_sends o' = o_remote_sends o ++ rounds /\ o_requests o' = o_requests o /\
    o_spec_sends o' = o_spec_sends o /\ rounds_ok (local_handles p) gs rounds.
Proof.
  induction n as [|n IH]; intros p o p' o' gs H HOI Hne Hgs; cbn [send_ready_go] in H.
  - injection H as <- <-. split; [exact HOI|]. split; [apply out_only_refl|]. exists []. rewrite app_nil_r. repeat split. constructor.
  - destruct (next_complete p (local_handles p)) as [f|] eqn:En.
    2:{ injection H as <- <-. split; [exact HOI|]. split; [apply out_only_refl|]. exists []. rewrite app_nil_r. repeat split. constructor. }
    destruct (next_complete_spec p gs f HOI Hne Hgs En) as (Hf & m & Gm & Hcm). rewrite Gm in H.
    destruct (OI_sent_one p gs f m HOI Hf Gm Hcm) as (Hround & HOI1).
    set (p1 := with_outgoing p (assoc_del (ps_outgoing p) f) f) in *.
    set (o1 := if existsb ev_running (ps_remotes p) then add_rsend o m else o) in *.
    change (local_handles p) with (local_handles p1) in H.
    destruct (IH p1 o1 p' o' gs H HOI1 Hne Hgs) as (HOI' & Oo & rounds & R1 & R2 & R3 & R4).
    split; [exact HOI'|]. split; [eapply out_only_trans; [apply out_only_with|exact Oo]|].
    subst o1. destruct (existsb ev_running (ps_remotes p)).
    + exists (m :: rounds). cbn [add_rsend o_remote_sends o_requests o_spec_sends] in R1, R2, R3.
      rewrite R1, <- app_assoc. split; [reflexivity|]. split; [exact R2|]. split; [exact R3|].
      constructor; [|exact R4]. exists f. split; [pose proof (oi_last _ _ HOI); unfold NULL in *; lia|exact Hround].
    + exists rounds. split; [exact R1|]. split; [exact R2|]. split; [exact R3|exact R4].
Qed.

Lemma assoc_del_length {A} : forall (l : list (Z * A)) k m, assoc_get l k = Some m -> length l = S (length (assoc_del l k)).
Proof.
  induction l as [|[k0 v0] l IH]; intros k m H; cbn [assoc_get assoc_del] in *; [discriminate|].
  destruct (k0 =? k); [reflexivity|]. cbn [length]. f_equal. eapply IH. exact H.
Qed.
Lemma assoc_get_In {A} : forall (l : list (Z * A)) k m, assoc_get l k = Some m -> In (k, m) l.
Proof.
  induction l as [|[k0 v0] l IH]; intros k m H; cbn [assoc_get] in H; [discriminate|].
  destruct (Z.eqb_spec k0 k) as [->|Hne]; [injection H as ->; left; reflexivity|right; apply IH; exact H].
Qed.

(* with enough fuel, and every local player holding the same number of frames H, the loop sends everything:
   nothing is left queued and the last frame sent is H - 1 *)
Lemma send_ready_go_done : forall n p o p' o' gs H,
  send_ready_go n p (local_handles p) o = Ok (p', o') -> OI p gs -> local_handles p <> [] ->
  (forall h, In h (local_handles p) -> exists gh, nth_error gs (Z.to_nat h) = Some gh) ->
  (length (ps_outgoing p) < n)%nat ->
  (forall h gh, In h (local_handles p) -> nth_error gs (Z.to_nat h) = Some gh -> hlen (fst gh) = H) ->
  ps_outgoing p' = [] /\ ps_last_sent_out p' = H - 1.
Proof.
  induction n as [|n IH]; intros p o p' o' gs H E HOI Hne Hgs Hfuel Hall; [lia|]. cbn [send_ready_go] in E.
  destruct (next_complete p (local_handles p)) as [f|] eqn:En.
  - destruct (next_complete_spec p gs f HOI Hne Hgs En) as (Hf & m & Gm & Hcm). rewrite Gm in E.
    destruct (OI_sent_one p gs f m HOI Hf Gm Hcm) as (_ & HOI1).
    set (p1 := with_outgoing p (assoc_del (ps_outgoing p) f) f) in *.
    change (local_handles p) with (local_handles p1) in E.
    apply (IH p1 _ p' o' gs H E HOI1 Hne Hgs); [|exact Hall].
    subst p1. cbn [with_outgoing ps_outgoing]. rewrite (assoc_del_length _ _ _ Gm) in Hfuel. lia.
  - injection E as <- <-. pose proof HOI as [A B C D F0].
    assert (exists h0, In h0 (local_handles p)) as (h0 & Hin0) by (destruct (local_handles p); [congruence|eexists; left; reflexivity]).
    destruct (Hgs h0 Hin0) as (gh0 & Hg0). destruct (D h0 gh0 Hin0 Hg0) as (Hlt0 & _). rewrite (Hall h0 gh0 Hin0 Hg0) in Hlt0.
    assert (HS : ps_last_sent_out p = H - 1).
    { destruct (Z.eq_dec (ps_last_sent_out p) (H - 1)) as [X|X]; [exact X|exfalso].
      set (f1 := ps_last_sent_out p + 1) in *.
      assert (H1 : forall h, In h (local_handles p) -> out_entry p f1 h <> None).
      { intros h Hin. destruct (Hgs h Hin) as (gh & Hg). destruct (D h gh Hin Hg) as (_ & D2).
        rewrite (D2 f1) by (subst f1; lia). rewrite (Hall h gh Hin Hg).
        assert ((f1 <? H) = true) as -> by (subst f1; lia). discriminate. }
      pose proof (H1 h0 Hin0) as Y. unfold out_entry in Y.
      destruct (assoc_get (ps_outgoing p) f1) as [m1|] eqn:G1; [|congruence].
      assert (Hc : complete (local_handles p) m1 = true).
      { rewrite complete_spec. intros h Hin. specialize (H1 h Hin). unfold out_entry in H1. rewrite G1 in H1.
        destruct (assoc_get m1 h); [eauto|congruence]. }
      unfold next_complete in En. destruct (Z.eqb_spec (ps_last_sent_out p) NULL) as [E0|E0].
      - destruct (find _ _) as [[f0 m0]|] eqn:Ef; [discriminate|].
        pose proof (find_none _ _ Ef (f1, m1) (assoc_get_In _ _ _ G1)) as Z0. cbn [snd] in Z0. congruence.
      - fold f1 in En. rewrite G1, Hc in En. discriminate. }
    split; [|exact HS].
    destruct (ps_outgoing p) as [|[k m] rest] eqn:Eo; [reflexivity|exfalso].
    assert (Gk : assoc_get ((k, m) :: rest) k = Some m) by (cbn [assoc_get]; rewrite Z.eqb_refl; reflexivity).
    pose proof (C _ _ Gk). destruct (F0 _ _ Gk) as (h & gh & Hin & Hg & Hlt). rewrite (Hall h gh Hin Hg) in Hlt. lia.
Qed.

Lemma hlen_fill : forall hist x n v, hlen (hist ++ repeat x n ++ [v]) = hlen hist + Z.of_nat n + 1.
Proof. intros. unfold hlen. rewrite !app_length, repeat_length. cbn. lia. Qed.

Lemma qi_local_add : forall c L q hist low q' hist',
  QI c L q hist low -> pi_frame (q_pred q) = NULL -> q_first_incorrect q = NULL ->
  RInv q' hist' low -> q_last_requested q' = q_last_requested q ->
  q_first_incorrect q' = q_first_incorrect q -> q_pred q' = q_pred q -> hlen hist <= hlen hist' ->
  QI c L q' hist' low.
Proof.
  intros c L q hist low q' hist' [I P1 P2 P4 Rq Lw Cf] Hp Hf I' R' F' P' Hle.
  constructor; rewrite ?R', ?F', ?P'.
  - exact I'.
  - left. exact Hp.
  - intros A. congruence.
  - intros A. congruence.
  - exact Rq.
  - exact Lw.
  - lia.
Qed.

Lemma QS_set_player : forall sp w d p gs h q' hist low hist' st',
  QSg sp w d p gs -> nth_error gs h = Some (hist, low) ->
  QI (s_current (ps_sync p)) (s_last_confirmed (ps_sync p)) q' hist' low ->
  cs_disc st' = false -> cs_last st' = hlen hist' - 1 -> hlen hist <= hlen hist' ->
  (forall k, nth_error (ps_kinds p) h = Some k -> KI (s_current (ps_sync p)) d k q' hist') ->
  QSg sp w d (with_status (with_sync p (with_queues (ps_sync p) (updz (s_queues (ps_sync p)) h q'))) (updz (ps_status p) h st'))
      (updz gs h (hist', low)).
Proof.
  intros sp w d p gs h q' hist low hist' st' [Hw Hd Hmode Hn Hconn Hgos HQ Hlast Hfr Hkinds Hpe Hsok] Eg Hqi' Hdisc Hlast' Hle Hki'.
  pose proof (QsI_length _ _ _ _ HQ) as Hlq.
  assert (Hhl : (h < length gs)%nat) by (apply nth_error_Some; congruence).
  constructor; cbn [with_status with_sync with_queues ps_maxpred ps_sync ps_running ps_sparse ps_spectators ps_disc_frame ps_nplayers
                    ps_kinds ps_status ps_remotes ps_pending s_maxpred s_current s_last_confirmed s_queues].
  - exact Hw.
  - exact Hd.
  - exact Hmode.
  - rewrite !updz_length. exact Hn.
  - apply Forall_updz; [exact Hconn|exact Hdisc].
  - exact Hgos.
  - apply Forall2_updz2; [exact HQ|exact Hqi'].
  - apply Forall2_updz2; [exact Hlast|exact Hlast'].
  - exact Hfr.
  - intros h0 k q0 gh0 A B C. destruct (Nat.eq_dec h h0) as [Eh|Eh].
    + subst h0. rewrite nth_error_updz_same in B by lia. rewrite nth_error_updz_same in C by lia.
      injection B as <-. injection C as <-. exact (Hki' k A).
    + rewrite nth_error_updz_other in B by exact Eh. rewrite nth_error_updz_other in C by exact Eh.
      exact (Hkinds _ _ _ _ A B C).
  - exact Hpe.
  - eapply spec_ok_grow; [exact Hsok|reflexivity|reflexivity|reflexivity|]. eapply grow_updz; eassumption.
Qed.

Definition Done (c d : Z) (qs : list queue) (gs : list ghost) (h : Z) : Prop :=
  forall q gh, nth_error qs (Z.to_nat h) = Some q -> nth_error gs (Z.to_nat h) = Some gh ->
    hlen (fst gh) = c + d + 1 /\ q_last_user q = c.

(* how a queue and its history may change while the local inputs are registered: not at all, or -
   for a queue that is not predicting and already reaches the current frame - by appended inputs *)
Definition grows (c : Z) (q : queue) (hist : list Z) (q' : queue) (hist' : list Z) : Prop :=
  q_first_incorrect q' = q_first_incorrect q /\ (q_pred q' = q_pred q /\ q_last_requested q' = q_last_requested q) /\
  (hist' = hist \/ (c <= hlen hist /\ pi_frame (q_pred q) = NULL /\ q_first_incorrect q = NULL /\
                    exists ext, hist' = hist ++ ext)).
Definition grows_all (c : Z) (qs : list queue) (gs : list ghost) (qs' : list queue) (gs' : list ghost) : Prop :=
  forall h q' gh', nth_error qs' h = Some q' -> nth_error gs' h = Some gh' ->
    exists q gh, nth_error qs h = Some q /\ nth_error gs h = Some gh /\ grows c q (fst gh) q' (fst gh').
Lemma grows_all_refl : forall c qs gs, grows_all c qs gs qs gs.
Proof. intros c qs gs h q gh A B. exists q, gh. split; [exact A|]. split; [exact B|]. split; [reflexivity|]. split; [split; reflexivity|left; reflexivity]. Qed.
Lemma grows_all_trans : forall c a ga b gb e ge, grows_all c a ga b gb -> grows_all c b gb e ge -> grows_all c a ga e ge.
Proof.
  intros c a ga b gb e ge H1 H2 h q' gh' A B.
  destruct (H2 h q' gh' A B) as (q1 & gh1 & A1 & B1 & (F1 & (P1 & R1) & G1)).
  destruct (H1 h q1 gh1 A1 B1) as (q0 & gh0 & A0 & B0 & (F0 & (P0 & R0) & G0)).
  exists q0, gh0. split; [exact A0|]. split; [exact B0|]. split; [congruence|]. split; [split; congruence|].
  destruct G0 as [G0|(X1 & X2 & X3 & ext0 & X4)].
  - rewrite <- G0. destruct G1 as [G1|(Y1 & Y2 & Y3 & Y4)]; [left; exact G1|right]. rewrite <- P0, <- F0. repeat split; assumption.
  - right. split; [exact X1|]. split; [exact X2|]. split; [exact X3|].
    destruct G1 as [G1|(_ & _ & _ & ext1 & Y4)]; [exists ext0; congruence|].
    exists (ext0 ++ ext1). rewrite Y4, X4, app_assoc. reflexivity.
Qed.

(* exactly how the histories change while the local inputs are registered: the history of a handle in
   [touched] may get that handle's pending input appended - after [k] copies of the blank input when
   it is the player's very first input (the input delay) *)
Definition hist_step (d : Z) (pending : list (Z * pinput)) (touched : list Z) (gs gs' : list ghost) : Prop :=
  forall h0 gh', nth_error gs' h0 = Some gh' -> exists gh, nth_error gs h0 = Some gh /\
    (fst gh' = fst gh \/
     (In (Z.of_nat h0) touched /\ exists pi k, assoc_get pending (Z.of_nat h0) = Some pi /\
        fst gh' = fst gh ++ repeat 0 k ++ [pi_val pi] /\ ((fst gh = [] /\ k = Z.to_nat d) \/ k = 0%nat))).
Lemma hist_step_refl : forall d pend t gs, hist_step d pend t gs gs.
Proof. intros d pend t gs h0 gh' H. exists gh'. split; [exact H|left; reflexivity]. Qed.
Lemma hist_step_cons : forall d pend h r gs gs1 gs',
  hist_step d pend [h] gs gs1 -> hist_step d pend r gs1 gs' -> ~ In h r -> hist_step d pend (h :: r) gs gs'.
Proof.
  intros d pend h r gs gs1 gs' H1 H2 Hn h0 gh' A.
  destruct (H2 h0 gh' A) as (gh1 & A1 & B1). destruct (H1 h0 gh1 A1) as (gh & A0 & B0).
  exists gh. split; [exact A0|].
  destruct B1 as [B1|(I1 & pi & k & X1 & X2 & X3)].
  - rewrite B1. destruct B0 as [B0|(I0 & Y)]; [left; exact B0|right; split; [|exact Y]].
    destruct I0 as [<-|[]]. left. reflexivity.
  - destruct B0 as [B0|([I0|[]] & _)].
    + right. split; [right; exact I1|]. exists pi, k. rewrite <- B0. split; [exact X1|]. split; [exact X2|exact X3].
    + exfalso. apply Hn. rewrite I0. exact I1.
Qed.

(* the sync layer is handed the pending input of a local player.  It drops it when an earlier call
   that stalled registered it already; otherwise it appends it to the player's history at frame
   c + d - behind the d blanks of the input delay when it is the player's first input *)
Lemma local_add_progress : forall sp w d p gs h pi q hist low,
  QSg sp w d p gs -> all_clean (s_queues (ps_sync p)) -> 0 <= h ->
  nth_error (ps_kinds p) (Z.to_nat h) = Some KLocal -> assoc_get (ps_pending p) h = Some pi ->
  nth_error (s_queues (ps_sync p)) (Z.to_nat h) = Some q -> nth_error gs (Z.to_nat h) = Some (hist, low) ->
  (add_local_input (ps_sync p) h (pi_frame pi) (pi_val pi) = Ok (ps_sync p, NULL) /\
   hlen hist = s_current (ps_sync p) + d + 1 /\ q_last_user q = s_current (ps_sync p)) \/
  exists q' k,
    add_local_input (ps_sync p) h (pi_frame pi) (pi_val pi) =
      Ok (with_queues (ps_sync p) (updz (s_queues (ps_sync p)) (Z.to_nat h) q'), s_current (ps_sync p) + d) /\
    QI (s_current (ps_sync p)) (s_last_confirmed (ps_sync p)) q' (hist ++ repeat 0 k ++ [pi_val pi]) low /\
    q_delay q' = d /\ q_last_user q' = s_current (ps_sync p) /\
    q_first_incorrect q' = q_first_incorrect q /\ q_pred q' = q_pred q /\ q_last_requested q' = q_last_requested q /\
    hlen hist + Z.of_nat k = s_current (ps_sync p) + d /\ ((hist = [] /\ k = Z.to_nat d) \/ k = 0%nat) /\
    s_current (ps_sync p) <= hlen hist /\ pi_frame (q_pred q) = NULL /\ q_first_incorrect q = NULL.
Proof.
  intros sp w d p gs h pi q hist low HQS Hcl Hh Hk Hpend Eq Eg.
  set (c := s_current (ps_sync p)) in *. set (L := s_last_confirmed (ps_sync p)) in *.
  pose proof (Forall2_nth _ _ _ _ _ _ (qs_qs _ _ _ _ HQS) Eq Eg) as Hqi. cbn [fst snd] in Hqi. fold c L in Hqi.
  destruct (qs_kinds _ _ _ _ HQS _ _ _ _ Hk Eq Eg) as (Hdel & Hpn & Hform). fold c in Hform. cbn [fst] in Hform.
  assert (Hfq : q_first_incorrect q = NULL).
  { unfold all_clean in Hcl. rewrite Forall_forall in Hcl. apply Hcl. eapply nth_error_In. exact Eq. }
  pose proof (qs_pending _ _ _ _ HQS _ _ Hpend) as Hpf. fold c in Hpf.
  destruct (qs_d _ _ _ _ HQS) as (Hd0 & Hcap). destruct (qs_frames _ _ _ _ HQS) as (HfL & Hfc & Hfw). fold c L in HfL, Hfc, Hfw.
  assert (Hlen : 0 <= h < Z.of_nat (length (s_queues (ps_sync p)))).
  { split; [exact Hh|]. assert (nth_error (s_queues (ps_sync p)) (Z.to_nat h) <> None) as X by congruence.
    apply nth_error_Some in X. lia. }
  assert (Hqn : qnth (ps_sync p) h = q) by (unfold qnth; erewrite nth_error_nth; [reflexivity|exact Eq]).
  pose proof (qi_ring _ _ _ _ _ Hqi) as I. destruct (qi_low _ _ _ _ _ Hqi) as (Lw1 & Lw2).
  destruct (ri_low _ _ _ I) as (Hl0 & _ & Hlnil). pose proof (hlen_nonneg hist) as Hnn.
  set (k := Z.to_nat (c + d - hlen hist)).
  assert (Hopen : (hlen hist = c + d + 1 /\ q_last_user q = c) \/
            ((q_last_user q = NULL \/ c = q_last_user q + 1) /\ hlen hist <= c + d /\ c + d + 1 - low <= QLEN /\
             ((hist = [] /\ k = Z.to_nat d) \/ k = 0%nat) /\ c <= hlen hist /\ repeat (hlast hist) k = repeat 0 k)).
  { subst k. destruct Hform as [(-> & Hlu & Hcz)|[(Hhl2 & Hlu & Hc1)|Hc]]; [right|right|left; exact Hc].
    - specialize (Hlnil eq_refl). change (hlen []) with 0 in *. split; [left; exact Hlu|]. split; [lia|]. split; [lia|].
      split; [left; split; [reflexivity|f_equal; lia]|]. split; [lia|reflexivity].
    - split; [right; lia|]. split; [lia|]. split; [lia|]. replace (c + d - hlen hist) with 0 by lia.
      split; [right; reflexivity|]. split; [lia|reflexivity]. }
  destruct Hopen as [(Hhl3 & Hlu)|(Hs & Hle & Hcapq & Hkk & Hreach & Hrep)].
  - (* registered already *)
    left. split; [|split; assumption]. apply add_local_input_ok. split; [exact Hpf|]. split; [exact Hlen|].
    exists q. rewrite Hqn. split.
    + unfold add_input. rewrite Hlu, Hpf. assert ((negb (c =? NULL) && negb (c =? c + 1)) = true) as -> by (unfold NULL; lia). reflexivity.
    + rewrite (updz_same _ _ _ Eq), with_queues_self. reflexivity.
  - right. destruct (add_input_ok q hist low c (pi_val pi) I Hpn ltac:(rewrite Hdel; exact Hd0) Hs Hfc) as [_ Hadd].
    rewrite Hdel in Hadd. destruct (Hadd Hle Hcapq) as (q' & Ea & I' & D' & U' & R' & F' & P'). fold k in I'. rewrite Hrep in I'.
    exists q', k.
    split; [apply add_local_input_ok; split; [exact Hpf|]; split; [exact Hlen|]; exists q'; rewrite Hqn, Hpf; split; [exact Ea|reflexivity]|].
    split; [eapply qi_local_add; try eassumption; rewrite hlen_fill; lia|].
    split; [congruence|]. split; [exact U'|]. split; [exact F'|]. split; [exact P'|]. split; [exact R'|].
    split; [subst k; clear - Hle; lia|]. auto.
Qed.

Lemma register_one_ok : forall p1 h actual v, 0 <= actual ->
  exists p4, register_one p1 h actual v = Ok p4 /\
    out_only (with_status p1 (set_stat (ps_status p1) h (mkcs (cs_disc (stat_at p1 h)) actual))) p4.
Proof.
  intros p1 h actual v Ha. unfold register_one. assert ((actual =? NULL) = false) as -> by (unfold NULL; lia).
  assert (Hb : exists p2, (if cs_last (stat_at p1 h) =? NULL then queue_blanks (Z.to_nat actual) p1 h 0 else Ok p1) = Ok p2 /\ out_only p1 p2).
  { destruct (cs_last (stat_at p1 h) =? NULL); [apply queue_blanks_ok; lia|]. exists p1. split; [reflexivity|apply out_only_refl]. }
  destruct Hb as (p2 & -> & O2). cbn [res_bind].
  destruct (queue_outgoing_ok (with_status p2 (set_stat (ps_status p2) h (mkcs (cs_disc (stat_at p2 h)) actual))) h (mkpi actual v))
    as (p4 & E4 & O4); [cbn [pi_frame]; unfold NULL; lia|].
  exists p4. split; [exact E4|]. rewrite O4, O2. unfold out_only. reflexivity.
Qed.

Lemma register_out : forall p1 p4 gs h hist low kf v actual,
  OI p1 gs -> In h (local_handles p1) -> nth_error gs (Z.to_nat h) = Some (hist, low) ->
  ps_remotes p1 <> [] -> cs_last (stat_at p1 h) = hlen hist - 1 ->
  register_one p1 h actual v = Ok p4 ->
  actual = hlen hist + Z.of_nat kf -> (hist = [] \/ kf = 0%nat) ->
  OI p4 (updz gs (Z.to_nat h) (hist ++ repeat 0 kf ++ [v], low)).
Proof.
  intros p1 p4 gs h hist low kf v actual HOI Hin Hg Hr Hcs H Hact Hcase.
  assert (Hh0 : 0 <= hlen hist) by apply hlen_nonneg.
  unfold register_one in H. assert ((actual =? NULL) = false) as Hn by (unfold NULL; lia). rewrite Hn in H.
  apply res_bind_ok in H. destruct H as (p2 & Eb & E4).
  assert (Hb : out_only p1 p2 /\ ps_last_sent_out p2 = ps_last_sent_out p1 /\
               (keys_sorted (ps_outgoing p1) -> keys_sorted (ps_outgoing p2)) /\
               (forall f m', assoc_get (ps_outgoing p2) f = Some m' -> hlen hist <= f < actual \/ exists m, assoc_get (ps_outgoing p1) f = Some m) /\
               forall f' h', out_entry p2 f' h' = if (hlen hist <=? f') && (f' <? actual) && (h' =? h) then Some (blank f') else out_entry p1 f' h').
  { destruct (Z.eqb_spec (cs_last (stat_at p1 h)) NULL) as [En|En].
    - assert (hlen hist = 0) by (unfold NULL in *; lia).
      destruct (queue_blanks_entry _ _ _ _ _ Hr Eb) as (O & L & S & K & E).
      split; [exact O|]. split; [exact L|]. split; [exact S|]. split.
      + intros f m' G. destruct (K f m' G) as [R|R]; [left; lia|right; exact R].
      + intros f' h'. rewrite E. rewrite Z2Nat.id by lia. replace (0 + actual) with actual by lia. replace (hlen hist) with 0 by lia. reflexivity.
    - injection Eb as <-. split; [apply out_only_refl|]. split; [reflexivity|]. split; [tauto|]. split; [eauto|].
      intros f' h'. destruct Hcase as [-> | ->]; [unfold hlen, NULL in *; cbn [length] in *; lia|].
      assert ((hlen hist <=? f') && (f' <? actual) = false) as -> by lia. reflexivity. }
  destruct Hb as (O2 & L2 & S2 & K2 & En2).
  set (st' := set_stat (ps_status p2) h (mkcs (cs_disc (stat_at p2 h)) actual)) in *.
  assert (Hr2 : ps_remotes (with_status p2 st') <> []) by (rewrite O2; exact Hr).
  destruct (queue_outgoing_entry _ _ _ _ Hr2 E4) as (O4 & L4 & S4 & K4 & En4). cbn [pi_frame] in K4, En4.
  assert (Hext : hlen (repeat 0 kf ++ [v]) = Z.of_nat kf + 1) by (unfold hlen; rewrite app_length, repeat_length; cbn [length]; lia).
  apply (OI_extend p1 p4 gs h hist low (repeat 0 kf ++ [v]) HOI Hin Hg).
  - rewrite O4, O2. reflexivity.
  - rewrite L4. cbn [with_status ps_last_sent_out]. exact L2.
  - apply S4. cbn [with_status ps_outgoing]. apply S2. exact (oi_sorted _ _ HOI).
  - intros f m' G. destruct (K4 f m' G) as [->|(m & R)]; [left; lia|]. cbn [with_status ps_outgoing] in R.
    destruct (K2 f m R) as [X|X]; [left; lia|right; exact X].
  - intros f' h'. rewrite En4. change (out_entry (with_status p2 st') f' h') with (out_entry p2 f' h'). rewrite En2, Hext.
    destruct (Z.eqb_spec h' h) as [->|Hh]; rewrite ?andb_false_r, ?andb_true_r; [|reflexivity].
    destruct (Z.eqb_spec f' actual) as [->|Hf].
    + assert ((hlen hist <=? actual) && (actual <? hlen hist + (Z.of_nat kf + 1)) = true) as -> by lia.
      f_equal. f_equal. unfold hval. rewrite app_nth2 by (unfold hlen in *; lia).
      replace (Z.to_nat actual - length hist)%nat with kf by (unfold hlen in *; lia).
      rewrite app_nth2 by (rewrite repeat_length; lia). rewrite repeat_length, Nat.sub_diag. reflexivity.
    + destruct ((hlen hist <=? f') && (f' <? actual)) eqn:E.
      * assert ((hlen hist <=? f') && (f' <? hlen hist + (Z.of_nat kf + 1)) = true) as -> by lia.
        unfold blank. f_equal. f_equal. unfold hval. rewrite app_nth2 by (unfold hlen in *; lia).
        replace (nth (Z.to_nat f' - length hist) (repeat 0 kf ++ [v]) 0) with (hval (repeat 0 kf ++ [v]) (f' - hlen hist))
          by (unfold hval, hlen; f_equal; lia).
        rewrite hval_fill by lia. destruct (Z.eqb_spec (f' - hlen hist) (Z.of_nat kf)); [lia|reflexivity].
      * assert ((hlen hist <=? f') && (f' <? hlen hist + (Z.of_nat kf + 1)) = false) as -> by lia. reflexivity.
Qed.

Lemma register_step : forall sp w d p gs h pi r,
  QSg sp w d p gs -> all_clean (s_queues (ps_sync p)) ->
  0 <= h -> nth_error (ps_kinds p) (Z.to_nat h) = Some KLocal ->
  assoc_get (ps_pending p) h = Some pi ->
  exists p' gs', register_go p (h :: r) = register_go p' r /\
    QSg sp w d p' gs' /\ all_clean (s_queues (ps_sync p')) /\ p_rest p p' /\
    s_current (ps_sync p') = s_current (ps_sync p) /\ s_last_confirmed (ps_sync p') = s_last_confirmed (ps_sync p) /\
    Done (s_current (ps_sync p)) d (s_queues (ps_sync p')) gs' h /\
    (forall h', h' <> h -> 0 <= h' -> Done (s_current (ps_sync p)) d (s_queues (ps_sync p)) gs h' ->
                Done (s_current (ps_sync p)) d (s_queues (ps_sync p')) gs' h') /\
    grows_all (s_current (ps_sync p)) (s_queues (ps_sync p)) gs (s_queues (ps_sync p')) gs' /\
    hist_step d (ps_pending p) [h] gs gs' /\ (OIg p gs -> OIg p' gs').
Proof.
  intros sp w d p gs h pi r HQS Hcl Hh Hk Hpend.
  destruct (qs_n _ _ _ _ HQS) as (Hn1 & Hn2 & Hn3 & Hn4). pose proof (QsI_length _ _ _ _ (qs_qs _ _ _ _ HQS)) as Hlq.
  assert (Hhl : (Z.to_nat h < length gs)%nat).
  { assert (nth_error (ps_kinds p) (Z.to_nat h) <> None) as A by congruence. apply nth_error_Some in A. lia. }
  destruct (nth_error gs (Z.to_nat h)) as [[hist low]|] eqn:Eg; [|apply nth_error_None in Eg; lia].
  destruct (QS_nth _ _ _ _ _ _ _ HQS Eg) as (q & sth & Eq & Est & _ & Hcl0 & Hdisc0). cbn [fst] in Hcl0.
  rewrite register_go_cons, Hpend.
  destruct (local_add_progress sp w d p gs h pi q hist low HQS Hcl Hh Hk Hpend Eq Eg)
    as [(Ea & Hhl3 & Hlu)|(q' & kf & Ea & Hqi' & D' & U' & F' & P' & R' & Hlen' & Hkk & Hreach & Hpn & Hfq)];
    rewrite Ea; cbn [res_bind].
  - (* registered by an earlier call that stalled: dropped *)
    unfold register_one. rewrite Z.eqb_refl. cbn [res_bind]. rewrite with_sync_self.
    exists p, gs. split; [reflexivity|]. split; [exact HQS|]. split; [exact Hcl|]. split; [apply p_rest_refl|].
    split; [reflexivity|]. split; [reflexivity|]. split; [|split].
    + intros q0 gh0 B C. rewrite Eq in B. rewrite Eg in C. injection B as <-. injection C as <-. cbn [fst]. split; assumption.
    + intros h' _ _ Hdone. exact Hdone.
    + split; [apply grows_all_refl|split; [apply hist_step_refl|tauto]].
  - set (c := s_current (ps_sync p)) in *. set (L := s_last_confirmed (ps_sync p)) in *.
    set (v := pi_val pi) in *. set (hist' := hist ++ repeat 0 kf ++ [v]) in *. set (actual := c + d) in *.
    set (p1 := with_sync p (with_queues (ps_sync p) (updz (s_queues (ps_sync p)) (Z.to_nat h) q'))).
    assert (Hact : 0 <= actual) by (pose proof (hlen_nonneg hist); lia).
    destruct (register_one_ok p1 h actual v Hact) as (p4 & E4 & O4). rewrite E4. cbn [res_bind].
    set (gs' := updz gs (Z.to_nat h) (hist', low)).
    exists p4, gs'. split; [reflexivity|].
    assert (Hlh' : hlen hist' = c + d + 1) by (unfold hist'; rewrite hlen_fill; lia).
    assert (Hst1 : cs_disc (stat_at p1 h) = false) by (unfold stat_at; apply nth_connected; exact (qs_conn _ _ _ _ HQS)).
    rewrite Hst1 in O4. set (pA := with_status p1 (set_stat (ps_status p1) h (mkcs false actual))) in *.
    assert (HQA : QSg sp w d pA gs').
    { apply (QS_set_player sp w d p gs (Z.to_nat h) q' hist low hist' (mkcs false actual) HQS Eg Hqi'); [reflexivity|cbn [cs_last]; lia|lia|].
      intros k A. rewrite Hk in A. injection A as <-. cbn [KI]. split; [exact D'|]. split; [congruence|]. right. right. split; [exact Hlh'|exact U']. }
    assert (Hs4 : ps_sync p4 = with_queues (ps_sync p) (updz (s_queues (ps_sync p)) (Z.to_nat h) q')) by (rewrite O4; reflexivity).
    split; [eapply QS_out_only; [exact HQA|exact O4]|].
    split; [rewrite Hs4; cbn [with_queues s_queues]; apply Forall_updz; [exact Hcl|congruence]|].
    split; [rewrite O4; unfold p_rest; repeat split|].
    split; [rewrite Hs4; reflexivity|]. split; [rewrite Hs4; reflexivity|].
    rewrite Hs4. cbn [with_queues s_queues]. subst gs'.
    split; [|split; [|split; [|split]]].
    + intros q0 gh0 B C. rewrite nth_error_updz_same in B by lia. rewrite nth_error_updz_same in C by lia.
      injection B as <-. injection C as <-. cbn [fst]. split; [exact Hlh'|exact U'].
    + intros h' Hne Hh' Hdone q0 gh0 B C. assert (Z.to_nat h <> Z.to_nat h') by lia.
      rewrite nth_error_updz_other in B by assumption. rewrite nth_error_updz_other in C by assumption.
      exact (Hdone q0 gh0 B C).
    + intros h0 q0 gh0 B C. destruct (Nat.eq_dec (Z.to_nat h) h0) as [Eh|Eh].
      * subst h0. rewrite nth_error_updz_same in B by lia. rewrite nth_error_updz_same in C by lia.
        injection B as <-. injection C as <-. exists q, (hist, low). split; [exact Eq|]. split; [exact Eg|].
        cbn [fst]. split; [exact F'|]. split; [split; [exact P'|exact R']|]. right. split; [exact Hreach|]. split; [exact Hpn|].
        split; [exact Hfq|]. eexists. reflexivity.
      * rewrite nth_error_updz_other in B by exact Eh. rewrite nth_error_updz_other in C by exact Eh.
        exists q0, gh0. split; [exact B|]. split; [exact C|]. split; [reflexivity|]. split; [split; reflexivity|left; reflexivity].
    + intros h0 gh0 C. destruct (Nat.eq_dec (Z.to_nat h) h0) as [Eh|Eh].
      * subst h0. rewrite nth_error_updz_same in C by lia. injection C as <-. exists (hist, low). split; [exact Eg|].
        right. split; [left; lia|]. exists pi, kf. rewrite Z2Nat.id by lia. cbn [fst]. split; [exact Hpend|]. split; [reflexivity|exact Hkk].
      * rewrite nth_error_updz_other in C by exact Eh. exists gh0. split; [exact C|left; reflexivity].
    + intros HO Hr4. assert (Hr : ps_remotes p <> []) by (rewrite O4 in Hr4; exact Hr4).
      apply (register_out p1 p4 gs h hist low kf v actual).
      * eapply OI_same; [exact (HO Hr)|reflexivity|reflexivity|reflexivity|reflexivity].
      * apply (local_handles_spec p h ltac:(lia)). split; [lia|exact Hk].
      * exact Eg.
      * exact Hr.
      * unfold stat_at. subst p1. cbn [with_sync ps_status]. erewrite nth_error_nth; [|exact Est]. exact Hcl0.
      * exact E4.
      * lia.
      * destruct Hkk as [(-> & _)| ->]; [left; reflexivity|right; reflexivity].
Qed.

Lemma register_go_progress : forall sp hs w d p gs,
  QSg sp w d p gs -> all_clean (s_queues (ps_sync p)) -> NoDup hs ->
  Forall (fun h => 0 <= h /\ nth_error (ps_kinds p) (Z.to_nat h) = Some KLocal /\
                   exists pi, assoc_get (ps_pending p) h = Some pi) hs ->
  exists p' gs', register_go p hs = Ok p' /\ QSg sp w d p' gs' /\ all_clean (s_queues (ps_sync p')) /\ p_rest p p' /\
    s_current (ps_sync p') = s_current (ps_sync p) /\ s_last_confirmed (ps_sync p') = s_last_confirmed (ps_sync p) /\
    (forall h, 0 <= h -> In h hs \/ Done (s_current (ps_sync p)) d (s_queues (ps_sync p)) gs h ->
               Done (s_current (ps_sync p)) d (s_queues (ps_sync p')) gs' h) /\
    grows_all (s_current (ps_sync p)) (s_queues (ps_sync p)) gs (s_queues (ps_sync p')) gs' /\
    hist_step d (ps_pending p) hs gs gs' /\ (OIg p gs -> OIg p' gs').
Proof.
  intros sp. induction hs as [|h r IH]; intros w d p gs HQS Hcl Hnd Hall.
  - exists p, gs. cbn [register_go]. split; [reflexivity|]. split; [exact HQS|]. split; [exact Hcl|].
    split; [apply p_rest_refl|]. split; [reflexivity|]. split; [reflexivity|]. split; [|split; [apply grows_all_refl|split; [apply hist_step_refl|tauto]]].
    intros h _ [[]|H]. exact H.
  - inversion Hall as [|? ? (Hh & Hk & pi & Hpe) Hall']; subst. inversion Hnd as [|? ? Hnin Hnd']; subst.
    destruct (register_step sp w d p gs h pi r HQS Hcl Hh Hk Hpe) as (p1 & gs1 & E1 & HQ1 & Hcl1 & Hr1 & Hc1 & HL1 & Hd1 & Ht1 & Hg1 & Hh1 & Ho1).
    rewrite E1.
    pose proof (p_rest_pending _ _ Hr1) as Hpend1.
    assert (Hall1 : Forall (fun h => 0 <= h /\ nth_error (ps_kinds p1) (Z.to_nat h) = Some KLocal /\
                                     exists pi, assoc_get (ps_pending p1) h = Some pi) r).
    { rewrite (p_rest_kinds _ _ Hr1), Hpend1. exact Hall'. }
    destruct (IH w d p1 gs1 HQ1 Hcl1 Hnd' Hall1) as (p' & gs' & E & HQ' & Hcl' & Hr' & Hc' & HL' & Hd' & Hg' & Hh' & Ho').
    exists p', gs'. split; [exact E|]. split; [exact HQ'|]. split; [exact Hcl'|].
    split; [eapply p_rest_trans; eassumption|]. split; [congruence|]. split; [congruence|].
    split; [|split; [rewrite Hc1 in Hg'; eapply grows_all_trans; eassumption|]].
    + intros h0 Hh0 Hin. rewrite Hc1 in Hd'.
      destruct (Z.eq_dec h0 h) as [->|Hne].
      * apply Hd'; [exact Hh0|]. right. exact Hd1.
      * apply Hd'; [exact Hh0|]. destruct Hin as [[->|Hin]|Hdone]; [congruence|left; exact Hin|].
        right. apply Ht1; assumption.
    + split; [rewrite Hpend1 in Hh'; eapply hist_step_cons; eassumption|]. intros HO. apply Ho', Ho1, HO.
Qed.

Lemma Forall2_hlens : forall (st : list cstat) gs gs',
  Forall2 (fun s g => cs_last s = hlen (fst g) - 1) st gs ->
  map (fun g : ghost => hlen (fst g)) gs' = map (fun g : ghost => hlen (fst g)) gs ->
  Forall2 (fun s g => cs_last s = hlen (fst g) - 1) st gs'.
Proof.
  induction st as [|s st IH]; intros gs gs' H E; inversion H; subst.
  - destruct gs'; [constructor|discriminate].
  - destruct gs' as [|g' gs']; [discriminate|]. cbn [map] in E. injection E as E1 E2.
    constructor; [lia|]. eapply IH; eassumption.
Qed.

Lemma QS_resync : forall sp w d p gs s' gs',
  QSg sp w d p gs -> s_maxpred s' = s_maxpred (ps_sync p) ->
  QsI (s_current s') (s_last_confirmed s') (s_queues s') gs' ->
  map (fun g : ghost => hlen (fst g)) gs' = map (fun g : ghost => hlen (fst g)) gs ->
  (-1 <= s_last_confirmed s' <= s_current s' /\ 0 <= s_current s' /\ s_current s' <= Z.max 0 (s_last_confirmed s') + Z.max 1 w) ->
  (forall h k q' gh', nth_error (ps_kinds p) h = Some k -> nth_error (s_queues s') h = Some q' ->
                      nth_error gs' h = Some gh' -> KI (s_current s') d k q' (fst gh')) ->
  (forall h pi, assoc_get (ps_pending p) h = Some pi -> pi_frame pi = s_current s') ->
  spec_ok (with_sync p s') gs' ->
  QSg sp w d (with_sync p s') gs'.
Proof.
  intros sp w d p gs s' gs' [Hw Hd Hmode Hn Hconn Hgos HQ Hlast Hfr Hkinds Hpe Hsok] Hmp HQ' Hmap Hfr' Hk' Hp' Hsok'.
  assert (Hlen : length gs' = length gs).
  { apply (f_equal (@length Z)) in Hmap. rewrite !map_length in Hmap. exact Hmap. }
  constructor; cbn [with_sync ps_maxpred ps_sync ps_running ps_sparse ps_spectators ps_disc_frame ps_nplayers
                    ps_kinds ps_status ps_remotes ps_pending].
  - destruct Hw as (A & B & C). repeat split; congruence.
  - exact Hd.
  - exact Hmode.
  - rewrite Hlen. exact Hn.
  - exact Hconn.
  - exact Hgos.
  - exact HQ'.
  - eapply Forall2_hlens; eassumption.
  - exact Hfr'.
  - exact Hk'.
  - exact Hp'.
  - exact Hsok'.
Qed.

Lemma KI_transfer : forall c d k q q' hist,
  KI c d k q hist -> q_delay q' = q_delay q -> q_last_user q' = q_last_user q ->
  (k = KLocal -> pi_frame (q_pred q) = NULL -> pi_frame (q_pred q') = NULL) -> KI c d k q' hist.
Proof.
  intros c d [| |] q q' hist H D U P; cbn [KI] in *; [|rewrite D, U; exact H|exact H].
  destruct H as (A & B & C). rewrite D, U. split; [exact A|]. split; [exact (P eq_refl B)|exact C].
Qed.

Lemma KI_local_reach : forall c d q hist, 0 <= d -> KI c d KLocal q hist -> c <= hlen hist.
Proof.
  intros c d q hist Hd (A & B & [(C & _ & E)|[(C & _ & E)|(C & _)]]); [subst hist; unfold hlen; cbn; lia|lia|lia].
Qed.

Lemma QS_nplayers : forall sp w d p gs, QSg sp w d p gs -> ps_nplayers p = Z.of_nat (length (ps_kinds p)).
Proof. intros sp w d p gs H. destruct (qs_n _ _ _ _ H) as (A & _ & B & _). lia. Qed.

Lemma map_fst_nth : forall (gs gs' : list ghost) h gh', map fst gs' = map fst gs -> nth_error gs' h = Some gh' ->
  exists gh, nth_error gs h = Some gh /\ fst gh = fst gh'.
Proof.
  induction gs as [|g gs IH]; intros [|g' gs'] h gh' E H; cbn [map] in E; try discriminate.
  - destruct h; discriminate.
  - injection E as E1 E2. destruct h as [|h]; cbn [nth_error] in *.
    + injection H as <-. exists g. split; [reflexivity|congruence].
    + eapply IH; eassumption.
Qed.
Lemma hist_step_map_fst : forall d pend t gs gs1 gs',
  hist_step d pend t gs gs1 -> map fst gs' = map fst gs1 -> hist_step d pend t gs gs'.
Proof.
  intros d pend t gs gs1 gs' H Hmap h0 gh' A. destruct (map_fst_nth gs1 gs' h0 gh' Hmap A) as (gh1 & A1 & Efst).
  destruct (H h0 gh1 A1) as (gh & Ag & Bg). exists gh. split; [exact Ag|]. rewrite <- Efst. exact Bg.
Qed.
Lemma map_fst_hlens : forall (gs gs' : list ghost), map fst gs' = map fst gs ->
  map (fun g : ghost => hlen (fst g)) gs' = map (fun g : ghost => hlen (fst g)) gs.
Proof.
  induction gs as [|g gs IH]; intros [|g' gs'] E; cbn [map] in *; try discriminate; [reflexivity|].
  injection E as E1 E2. rewrite E1, (IH gs' E2). reflexivity.
Qed.

Lemma local_handles_with_sync : forall p s, local_handles (with_sync p s) = local_handles p.
Proof. reflexivity. Qed.
Lemma with_pending_sync : forall p s l, with_pending (with_sync p s) l = with_sync (with_pending p l) s.
Proof. reflexivity. Qed.
Lemma QS_no_pending : forall sp w d p gs, QSg sp w d p gs -> QSg sp w d (with_pending p []) gs.
Proof.
  intros sp w d p gs H. eapply QS_ext; [exact H|reflexivity..|exact (qs_gossip _ _ _ _ H)|]. intros h pi X. discriminate X.
Qed.

Lemma cf_ge_conf : forall (st : list cstat) gs qs c L cf,
  QsI c L qs gs -> Forall2 (fun s g => cs_last s = hlen (fst g) - 1) st gs ->
  Exists (fun s => cf = cs_last s) st -> L <= cf.
Proof.
  induction st as [|s st IH]; intros gs qs c L cf HQ Hl He; [inversion He|].
  inversion Hl as [|? g0 ? gs0 H1 H2]; subst. inversion HQ as [|q ? qs0 ? Hq HQ']; subst.
  inversion He as [? ? E|? ? E]; subst.
  - pose proof (qi_conf _ _ _ _ _ Hq). lia.
  - eapply IH; eassumption.
Qed.
Lemma cf_le_all : forall (st : list cstat) (gs : list ghost) cf,
  Forall2 (fun s g => cs_last s = hlen (fst g) - 1) st gs -> Forall (fun s => cf <= cs_last s) st ->
  Forall (fun g0 : ghost => cf <= hlen (fst g0) - 1) gs.
Proof.
  intros st gs cf H. induction H as [|s g0 st gs0 H1 H2 IH]; intros Hf; [constructor|].
  inversion Hf; subst. constructor; [lia|]. apply IH. assumption.
Qed.

Lemma cf_is_held : forall (st : list cstat) (gs : list ghost) cf,
  Forall2 (fun s g => cs_last s = hlen (fst g) - 1) st gs -> Exists (fun s => cf = cs_last s) st ->
  Exists (fun g : ghost => cf = hlen (fst g) - 1) gs.
Proof.
  intros st gs cf H. induction H as [|s g st gs Hsg H IH]; intros He; inversion He; subst.
  - left. congruence.
  - right. apply IH. assumption.
Qed.

(* the inputs held for frame f, one per player *)
Definition held_at (gs : list ghost) (f : Z) : list pinput := map (fun g : ghost => mkpi f (hval (fst g) f)) gs.

Lemma confirmed_inputs_held : forall st qs gs c L f,
  QsI c L qs gs -> connected st -> length st = length qs ->
  Forall (fun g : ghost => snd g <= f < hlen (fst g)) gs ->
  confirmed_inputs_go f qs st = Ok (held_at gs f).
Proof.
  induction st as [|s st IH]; intros qs gs c L f HQ Hcon Hlen Hin.
  - destruct qs; [|discriminate]. inversion HQ; subst. reflexivity.
  - destruct qs as [|q qs]; [discriminate|]. inversion HQ as [|? g ? gs' Hq HQ']; subst.
    inversion Hcon as [|? ? Hs Hcon']; subst. inversion Hin as [|? ? Hg Hin']; subst.
    cbn [confirmed_inputs_go]. rewrite Hs. cbn [andb].
    unfold confirmed_input. rewrite (ri_slots _ _ _ (qi_ring _ _ _ _ _ Hq) f Hg). cbn [pi_frame]. rewrite Z.eqb_refl. cbn [res_bind].
    rewrite (IH qs gs' c L f HQ' Hcon' ltac:(cbn in Hlen; lia) Hin'). reflexivity.
Qed.

Lemma with_next_spec_idem : forall p a b, with_next_spec (with_next_spec p a) b = with_next_spec p b.
Proof. reflexivity. Qed.

Lemma spec_send_progress : forall n p cf o gs c L,
  QsI c L (s_queues (ps_sync p)) gs -> connected (ps_status p) ->
  length (ps_status p) = length (s_queues (ps_sync p)) -> Z.of_nat (length gs) = ps_nplayers p ->
  Forall (fun g : ghost => snd g <= ps_next_spec p /\ cf < hlen (fst g)) gs ->
  n = Z.to_nat (cf - ps_next_spec p + 1) ->
  exists p' o', spec_send_go n p cf o = Ok (p', o') /\
    p' = with_next_spec p (Z.max (ps_next_spec p) (cf + 1)) /\
    o_requests o' = o_requests o /\ o_remote_sends o' = o_remote_sends o /\
    o_spec_sends o' = o_spec_sends o ++
      (if existsb (fun b => b) (ps_spectators p)
       then map (fun f => (f, held_at gs f)) (zrange_from (ps_next_spec p) n) else []).
Proof.
  induction n as [|n IH]; intros p cf o gs c L HQ Hcon Hlen Hng Hin Hn.
  - cbn [spec_send_go zrange_from map]. exists p, o. split; [reflexivity|].
    replace (Z.max (ps_next_spec p) (cf + 1)) with (ps_next_spec p) by lia.
    split; [symmetry; apply with_next_spec_self|]. split; [reflexivity|]. split; [reflexivity|].
    destruct (existsb _ _); rewrite app_nil_r; reflexivity.
  - cbn [spec_send_go]. assert ((cf <? ps_next_spec p) = false) as -> by lia.
    unfold confirmed_inputs.
    rewrite (confirmed_inputs_held (ps_status p) _ gs c L (ps_next_spec p) HQ Hcon Hlen).
    2:{ eapply Forall_impl; [|exact Hin]. cbv beta. intros g (A & B). lia. }
    cbn [res_bind]. unfold held_at at 1 2. rewrite map_length.
    assert ((Z.of_nat (length gs) =? ps_nplayers p) = true) as -> by lia. cbn [negb].
    assert (forallb (fun i => (pi_frame i =? NULL) || (pi_frame i =? ps_next_spec p)) (map (fun g : ghost => mkpi (ps_next_spec p) (hval (fst g) (ps_next_spec p))) gs) = true) as ->.
    { apply forallb_forall. intros i Hi. apply in_map_iff in Hi. destruct Hi as (g & <- & _). cbn [pi_frame]. rewrite Z.eqb_refl. apply orb_true_r. }
    cbn [negb].
    set (o1 := if existsb (fun b => b) (ps_spectators p) then add_ssend o (ps_next_spec p) (map (fun g : ghost => mkpi (ps_next_spec p) (hval (fst g) (ps_next_spec p))) gs) else o).
    destruct (IH (with_next_spec p (ps_next_spec p + 1)) cf o1 gs c L) as (p' & o' & E & Hp' & R1 & R2 & R3).
    + exact HQ.
    + exact Hcon.
    + exact Hlen.
    + exact Hng.
    + cbn [with_next_spec ps_next_spec]. eapply Forall_impl; [|exact Hin]. cbv beta. intros g (A & B). lia.
    + cbn [with_next_spec ps_next_spec]. lia.
    + exists p', o'. split; [exact E|]. cbn [with_next_spec ps_next_spec ps_spectators] in Hp', R3.
      split; [rewrite Hp', with_next_spec_idem; replace (Z.max (ps_next_spec p + 1) (cf + 1)) with (Z.max (ps_next_spec p) (cf + 1)) by lia; reflexivity|].
      subst o1. destruct (existsb (fun b => b) (ps_spectators p)); cbn [add_ssend o_requests o_remote_sends o_spec_sends] in *.
      * split; [exact R1|]. split; [exact R2|]. rewrite R3. cbn [zrange_from map]. rewrite <- app_assoc. reflexivity.
      * split; [exact R1|]. split; [exact R2|]. rewrite R3. reflexivity.
Qed.

Lemma confirmed_frame_bounds : forall sp w d p gs,
  QSg sp w d p gs -> Forall (fun c => cs_last c < I32MAX) (ps_status p) ->
  exists cf, confirmed_frame p = Ok cf /\ s_last_confirmed (ps_sync p) <= cf /\
    Forall (fun g : ghost => cf <= hlen (fst g) - 1) gs /\ Exists (fun g : ghost => cf = hlen (fst g) - 1) gs.
Proof.
  intros sp w d p gs HQS Hbnd. destruct (qs_n _ _ _ _ HQS) as (Hn1 & Hn2 & _ & Hn4).
  destruct (confirmed_frame_spec p (qs_conn _ _ _ _ HQS)) as (cf & Ecf & Hcf1 & Hcf2); [|exact Hbnd|].
  { intro E. rewrite E in Hn4. cbn in Hn4. lia. }
  exists cf. split; [exact Ecf|]. split; [exact (cf_ge_conf _ _ _ _ _ _ (qs_qs _ _ _ _ HQS) (qs_last _ _ _ _ HQS) Hcf2)|].
  split; [exact (cf_le_all _ _ _ (qs_last _ _ _ _ HQS) Hcf1)|exact (cf_is_held _ _ _ (qs_last _ _ _ _ HQS) Hcf2)].
Qed.

Lemma QS_next_spec : forall sp w d p gs ns, QSg sp w d p gs -> spec_ok (with_next_spec p ns) gs -> QSg sp w d (with_next_spec p ns) gs.
Proof.
  intros sp w d p gs ns [A B C D E F G H I J K L] Hs.
  constructor; cbn [with_next_spec ps_maxpred ps_sync ps_running ps_sparse ps_spectators ps_disc_frame ps_nplayers ps_kinds ps_status ps_remotes ps_pending]; assumption.
Qed.

(* what the broadcast step appends for the spectators: the frames from the old next_spec up to the
   confirmed frame, each with the inputs held for it *)
Definition spec_sent (p : p2p) (gs : list ghost) (cf : Z) : list (Z * list pinput) :=
  match ps_spectators p with
  | [] => []
  | _ => if existsb (fun b => b) (ps_spectators p)
         then map (fun f => (f, held_at gs f)) (zrange_from (ps_next_spec p) (Z.to_nat (cf - ps_next_spec p + 1))) else []
  end.
Definition next_spec_after (p : p2p) (cf : Z) : Z :=
  match ps_spectators p with [] => ps_next_spec p | _ => Z.max (ps_next_spec p) (cf + 1) end.

Lemma QS_set_pending : forall sp w d p gs pend, QSg sp w d p gs ->
  (forall h pi, assoc_get pend h = Some pi -> pi_frame pi = s_current (ps_sync p)) -> QSg sp w d (with_pending p pend) gs.
Proof.
  intros sp w d p gs pend [A B C D E F G H I J K L] Hp.
  constructor; cbn [with_pending ps_maxpred ps_sync ps_running ps_sparse ps_spectators ps_disc_frame ps_nplayers ps_kinds ps_status ps_remotes ps_pending]; assumption.
Qed.

Lemma hist_step_hlens : forall d pend t gs gs', hist_step d pend t gs gs' -> hlens_grow gs gs'.
Proof.
  intros d pend t gs gs' H h g' A. destruct (H h g' A) as (g & B & C). exists g. split; [exact B|].
  destruct C as [->|(_ & pi & k & _ & -> & _)]; [lia|]. rewrite hlen_fill. lia.
Qed.

(* the second half of both advance paths, from the state q and the output o: the frames up to bk go out to the
   spectators (p3, o3) and become the last confirmed frames (s3); gs3 = the histories with the rings' new lower ends.
   p = the state in which the invariant held (spec_sent and next_spec_after read its next_spec) *)
Local Set Implicit Arguments.
Record confirmed (sp : bool) (w d : Z) (p : p2p) (gs : list ghost) (q : p2p) (bk : Z) (o : pout)
                 (p3 : p2p) (o3 : pout) (s3 : sync) (gs3 : list ghost) : Prop := {
  cf_send : send_confirmed_inputs_to_spectators q bk o = Ok (p3, o3);
  cf_state : p3 = with_next_spec q (next_spec_after p bk);
  cf_reqs : o_requests o3 = o_requests o;
  cf_rsends : o_remote_sends o3 = o_remote_sends o;
  cf_ssends : o_spec_sends o3 = o_spec_sends o ++ spec_sent p gs bk;
  cf_confirm : set_last_confirmed_frame (ps_sync q) bk sp = Ok s3;
  cf_qs : QSg sp w d (with_sync p3 s3) gs3;
  cf_clean : all_clean (s_queues s3);
  cf_hist : map fst gs3 = map fst gs;
  cf_cur : s_current s3 = s_current (ps_sync q);
  cf_last : s_last_confirmed s3 = Z.min (if sp then Z.min bk (s_last_saved (ps_sync q)) else bk) (s_current (ps_sync q));
  cf_saved : s_last_saved s3 = s_last_saved (ps_sync q);
  cf_queues : Forall2 (fun a a' => q_pred a' = q_pred a /\ q_first_incorrect a' = q_first_incorrect a)
                      (s_queues (ps_sync q)) (s_queues s3);
}.
Local Unset Implicit Arguments.

Section ProgressB.
Variable predict : Z -> Z.

(* what the rollback step must deliver for the rest of advance_rollback_frame (the same in both saving modes) *)
Definition HRpost (p : p2p) (gs : list ghost) (cf : Z) (o : pout) (p1 : p2p) (o1 : pout) : Prop :=
  handle_rollback_and_save predict p cf o = Ok (p1, o1) /\ p1 = with_sync p (ps_sync p1) /\
  QsI (s_current (ps_sync p)) (s_last_confirmed (ps_sync p)) (s_queues (ps_sync p1)) gs /\
  all_clean (s_queues (ps_sync p1)) /\ same_user (s_queues (ps_sync p)) (s_queues (ps_sync p1)) /\
  s_last_confirmed (ps_sync p1) = s_last_confirmed (ps_sync p) /\
  s_current (ps_sync p1) = s_current (ps_sync p) /\
  (forall h q gh q', nth_error (s_queues (ps_sync p)) h = Some q -> nth_error gs h = Some gh ->
     nth_error (s_queues (ps_sync p1)) h = Some q' -> s_current (ps_sync p) <= hlen (fst gh) ->
     pi_frame (q_pred q) = NULL -> pi_frame (q_pred q') = NULL) /\
  s_maxpred (ps_sync p1) = s_maxpred (ps_sync p) /\
  (ps_sparse p = true -> s_last_confirmed (ps_sync p) <= s_last_saved (ps_sync p1)).

(* p = a state in which the invariant holds, s2 and pend = the sync layer and the pending inputs that have replaced
   its own since *)
Lemma broadcast_confirm_progress : forall sp w d p gs s2 pend bk o,
  QSg sp w d p gs ->
  s_maxpred s2 = w -> s_last_confirmed s2 = s_last_confirmed (ps_sync p) ->
  QsI (s_current s2) (s_last_confirmed s2) (s_queues s2) gs -> all_clean (s_queues s2) ->
  (forall h k q gh, nth_error (ps_kinds p) h = Some k -> nth_error (s_queues s2) h = Some q ->
     nth_error gs h = Some gh -> KI (s_current s2) d k q (fst gh)) ->
  (forall h pi, assoc_get pend h = Some pi -> pi_frame pi = s_current s2) ->
  Forall (fun g : ghost => bk <= hlen (fst g) - 1) gs ->
  let L' := Z.min (if sp then Z.min bk (s_last_saved s2) else bk) (s_current s2) in
  s_last_confirmed s2 <= L' -> 0 <= s_current s2 <= Z.max 0 L' + Z.max 1 w ->
  (ps_spectators p <> [] -> L' <= bk) ->
  exists p3 o3 s3 gs3, confirmed sp w d p gs (with_pending (with_sync p s2) pend) bk o p3 o3 s3 gs3.
Proof.
  intros sp w d p gs s2 pend bk o HQS Hmp2 HL2 HQ2 Hcl2 Hk2 Hpe2 Hcfg L' HLL' Hfr' Hbk.
  pose proof (qs_conn _ _ _ _ HQS) as Hconn. pose proof (qs_spec _ _ _ _ HQS) as Hsok.
  destruct (qs_n _ _ _ _ HQS) as (Hn1 & _ & _ & Hn4).
  set (c2 := s_current s2) in *. set (L := s_last_confirmed (ps_sync p)) in *. set (ns := ps_next_spec p) in *.
  pose proof (QsI_length _ _ _ _ HQ2) as Hlq2.
  set (p2 := with_pending (with_sync p s2) pend).
  assert (Hsend : exists p3 o3, send_confirmed_inputs_to_spectators p2 bk o = Ok (p3, o3) /\
            p3 = with_next_spec p2 (next_spec_after p bk) /\ o_requests o3 = o_requests o /\
            o_remote_sends o3 = o_remote_sends o /\ o_spec_sends o3 = o_spec_sends o ++ spec_sent p gs bk /\
            spec_ok (with_next_spec p (next_spec_after p bk)) gs /\
            (ps_spectators p <> [] -> bk + 1 <= next_spec_after p bk)).
  { unfold send_confirmed_inputs_to_spectators, spec_sent, next_spec_after. change (ps_spectators p2) with (ps_spectators p).
    destruct (ps_spectators p) as [|b bs] eqn:Esp.
    - exists p2, o. split; [reflexivity|]. split; [exact (eq_sym (with_next_spec_self p2))|].
      split; [reflexivity|]. split; [reflexivity|]. split; [rewrite app_nil_r; reflexivity|]. split; [|intros X; congruence].
      intros X. cbn [with_next_spec ps_spectators] in X. congruence.
    - destruct (Hsok ltac:(rewrite Esp; discriminate)) as (S1 & S2 & S3). fold L ns in S1, S2, S3.
      destruct (spec_send_progress (Z.to_nat (bk - ps_next_spec p2 + 1)) p2 bk o gs c2 (s_last_confirmed s2) HQ2) as (p3 & o3 & E3 & Hp3 & R1 & R2 & R3).
      + exact Hconn.
      + change (length (ps_status p) = length (s_queues s2)). lia.
      + exact Hn1.
      + change (ps_next_spec p2) with ns. apply Forall_forall. intros g0 Hg0.
        rewrite Forall_forall in Hcfg. pose proof (Hcfg g0 Hg0) as Hc0.
        apply In_nth_error in Hg0. destruct Hg0 as (h & Hh).
        destruct (nth_error_some_len (s_queues s2) gs h g0 Hlq2 Hh) as (q2 & Hq2).
        pose proof (Forall2_nth _ _ _ _ _ _ HQ2 Hq2 Hh) as Hqi. cbv beta in Hqi.
        destruct (qi_low _ _ _ _ _ Hqi) as (Lw1 & _). split; lia.
      + reflexivity.
      + change (ps_next_spec p2) with ns in *. change (ps_spectators p2) with (ps_spectators p) in R3. rewrite Esp in R3.
        exists p3, o3. split; [exact E3|]. split; [exact Hp3|]. split; [exact R1|]. split; [exact R2|]. split; [exact R3|].
        split; [|intros _; lia].
        intros _. cbn [with_next_spec ps_next_spec ps_sync]. fold L ns. split; [lia|]. split; [lia|].
        apply Forall_forall. intros g0 Hg0. rewrite Forall_forall in S3, Hcfg. pose proof (S3 g0 Hg0). pose proof (Hcfg g0 Hg0). lia. }
  destruct Hsend as (p3 & o3 & Es & Hp3 & Hor3 & Hrs3 & Hos3 & Hsok2 & Hns2).
  pose proof (confirm_progress_g predict s2 gs bk sp) as Hcp. cbv zeta in Hcp. fold c2 in Hcp. fold L' in Hcp.
  destruct Hcp as (s3 & E3 & Hsv3 & HL3 & ((Hmp3 & _) & Hc3) & (gs3 & HQ3 & Hmap3) & Hcl3 & Hsu3 & Hpr3).
  { exact HQ2. }
  { exact Hcl2. }
  { exact HLL'. }
  { eapply Forall_impl; [|exact Hcfg]. cbv beta. intros a Ha. destruct sp; lia. }
  fold c2 in Hc3.
  assert (Hsame3 : Forall2 (fun q q' => q_pred q' = q_pred q /\ q_first_incorrect q' = q_first_incorrect q) (s_queues s2) (s_queues s3)).
  { clear - Hpr3 Hcl2 Hcl3. unfold all_clean in *. revert Hcl2 Hcl3.
    induction Hpr3 as [|q q' l l' H1 H2 IH]; intros A B; [constructor|].
    inversion A; inversion B; subst. constructor; [split; [exact H1|congruence]|apply IH; assumption]. }
  exists p3, o3, s3, gs3. constructor; try assumption.
  set (ns' := next_spec_after p bk) in *.
  assert (Hbase : QSg sp w d (with_sync (with_next_spec (with_pending p []) ns') s3) gs3).
  { apply (QS_resync _ w d (with_next_spec (with_pending p []) ns') gs s3 gs3).
    - apply QS_next_spec; [apply QS_no_pending; exact HQS|exact Hsok2].
    - cbn [with_next_spec with_pending ps_sync]. rewrite Hmp3, Hmp2. symmetry. exact (proj2 (proj2 (qs_w _ _ _ _ HQS))).
    - rewrite Hc3, HL3. exact HQ3.
    - apply map_fst_hlens. exact Hmap3.
    - rewrite Hc3, HL3. fold c2. destruct (qs_frames _ _ _ _ HQS) as ((HfL & _) & _). fold L in HfL. subst L'. lia.
    - cbn [with_next_spec with_pending ps_kinds]. rewrite Hc3. intros h k q3 gh3 A B C.
      destruct (map_fst_nth gs gs3 h gh3 Hmap3 C) as (gh & Cg & Efst). rewrite <- Efst.
      destruct (nth_error_some_len (s_queues s2) gs h gh Hlq2 Cg) as (q2 & Bq2).
      destruct (Forall2_nth _ _ _ _ _ _ Hsu3 Bq2 B) as (D3 & U3).
      pose proof (Forall2_nth _ _ _ _ _ _ Hpr3 Bq2 B) as P3. cbv beta in P3.
      apply (KI_transfer c2 d k q2 q3); [exact (Hk2 h k q2 gh A Bq2 Cg)|exact D3|exact U3|intros _ X; rewrite P3; exact X].
    - intros h pi X. discriminate X.
    - intros Hne. cbn [with_sync with_next_spec with_pending ps_spectators ps_next_spec ps_sync] in Hne |- *. rewrite HL3.
      destruct (Hsok2 Hne) as (S1 & S2 & S3). cbn [with_next_spec ps_next_spec ps_sync] in S1, S2, S3.
      specialize (Hns2 Hne). specialize (Hbk Hne). fold ns' in Hns2.
      split; [exact S1|]. split; [lia|].
      apply Forall_forall. intros g3 Hg3. apply In_nth_error in Hg3. destruct Hg3 as (h & Hh).
      destruct (map_fst_nth gs gs3 h g3 Hmap3 Hh) as (gh & Cg & Efst). rewrite <- Efst.
      rewrite Forall_forall in S3. exact (S3 gh (nth_error_In _ _ Cg)). }
  rewrite Hp3.
  apply (QS_set_pending _ _ _ _ _ pend) in Hbase; [exact Hbase|].
  intros h pi X. cbn [with_sync ps_sync]. rewrite Hc3. exact (Hpe2 h pi X).
Qed.

Lemma rollback_confirm_tail : forall sp p gs w d o cf p1 o1,
  QSg sp w d p gs -> s_last_confirmed (ps_sync p) <= cf -> Forall (fun g : ghost => cf <= hlen (fst g) - 1) gs ->
  HRpost p gs cf o p1 o1 -> exists p2 o2 s3 gs3, confirmed sp w d p gs p1 cf o1 p2 o2 s3 gs3.
Proof.
  intros sp p gs w d o cf p1 o1 HQS HLcf Hcfg (Er & Hshape & HQ1 & Hcl1 & Hsu1 & HL1 & Hc1 & Hidle1 & Hmp1 & HS1).
  pose proof (qs_w _ _ _ _ HQS) as Hw. pose proof (qs_d _ _ _ _ HQS) as Hd. pose proof (qs_qs _ _ _ _ HQS) as HQ.
  pose proof (qs_kinds _ _ _ _ HQS) as Hkinds. pose proof (qs_pending _ _ _ _ HQS) as Hpe.
  destruct (qs_mode _ _ _ _ HQS) as (_ & Hsp & _). destruct (qs_frames _ _ _ _ HQS) as (HfL & Hfc & Hfw).
  assert (HLfr : s_last_confirmed (ps_sync p) <= (if sp then Z.min cf (s_last_saved (ps_sync p1)) else cf)).
  { destruct sp; [specialize (HS1 Hsp)|]; lia. }
  assert (Hp1 : with_pending (with_sync p (ps_sync p1)) (ps_pending p) = p1)
    by (transitivity (with_sync p (ps_sync p1)); [destruct p; reflexivity|symmetry; exact Hshape]).
  rewrite <- Hp1. apply (broadcast_confirm_progress sp w d p gs (ps_sync p1) (ps_pending p) cf o1 HQS).
  - rewrite Hmp1. exact (proj2 (proj2 Hw)).
  - exact HL1.
  - rewrite Hc1, HL1. exact HQ1.
  - exact Hcl1.
  - (* the rollback leaves a local player's queue idle: it reaches the current frame *)
    rewrite Hc1. intros h k q1 gh A Bq1 Cg. destruct (QsI_nth _ _ _ _ h gh HQ Cg) as (q & Bq & _).
    pose proof (Hkinds h k q gh A Bq Cg) as HK. destruct (Forall2_nth _ _ _ _ _ _ Hsu1 Bq Bq1) as (D1 & U1).
    apply (KI_transfer _ d k q q1); [exact HK|exact D1|exact U1|].
    intros -> X. apply (Hidle1 h q gh q1 Bq Cg Bq1); [|exact X]. eapply KI_local_reach; [|exact HK]. lia.
  - rewrite Hc1. exact Hpe.
  - exact Hcfg.
  - rewrite HL1, Hc1. lia.
  - rewrite Hc1. lia.
  - intros _. destruct sp; lia.
Qed.

(* what rolled says, spelled out in HRpost *)
Lemma HRpost_intro : forall p gs cf o p1 o1,
  handle_rollback_and_save predict p cf o = Ok (p1, o1) -> rolled (s_last_confirmed (ps_sync p)) p gs p1 ->
  s_current (ps_sync p1) = s_current (ps_sync p) ->
  (ps_sparse p = true -> s_last_confirmed (ps_sync p) <= s_last_saved (ps_sync p1)) -> HRpost p gs cf o p1 o1.
Proof. intros p gs cf o p1 o1 E [A1 A2 A3 A4 A5 A6 A7] Hc HS. unfold HRpost. rewrite Hc in A2, A7. auto 12. Qed.

(* dense saving: the rollback step is the optional rollback to the first incorrect frame, then a save *)
Lemma dense_rollback : forall p gs g w d o cf,
  QS w d p gs -> JI w p g -> 1 <= w -> s_last_confirmed (ps_sync p) <= cf -> exists p1 o1, HRpost p gs cf o p1 o1.
Proof.
  intros p gs g w d o cf HQS HJI Hw1p HLcf.
  destruct (qs_mode _ _ _ _ HQS) as (_ & Hsp & Hdf). destruct (qs_n _ _ _ _ HQS) as (_ & _ & _ & Hn4).
  destruct (qs_frames _ _ _ _ HQS) as (HfL & Hfc & Hfw). rewrite (Z.max_r 1 w) in Hfw by lia.
  pose proof (QsI_length _ _ _ _ (qs_qs _ _ _ _ HQS)) as Hlq.
  destruct HJI as [_ _ _ _ Jroll]. destruct (Jroll Hw1p) as (_ & Jm & (_ & _ & _ & Jcells)).
  destruct (first_rollback_progress predict p gs cf o (qs_conn _ _ _ _ HQS) ltac:(lia) Hdf (qs_qs _ _ _ _ HQS) ltac:(lia))
    as (p1 & o1 & E1 & Hr1 & Hc1).
  { intros fi _ Hfi. unfold frame_to_load. rewrite Hsp, Jm. repeat (split; [lia|]). apply Jcells. lia. }
  assert (Hsp1 : ps_sparse p1 = false) by (rewrite (ro_shape _ _ _ _ Hr1); exact Hsp).
  exists (with_sync p1 (saved (ps_sync p1))), (add_req o1 (RSave (s_current (ps_sync p1)))). apply HRpost_intro.
  - rewrite handle_rollback_and_save_eq, E1. cbn [res_bind]. rewrite Hsp1. apply save_p2p_ok. rewrite Hc1. auto.
  - apply rolled_sync; [exact Hr1|reflexivity..].
  - exact Hc1.
  - intros X. congruence.
Qed.

Lemma rollback_confirm_progress : forall p gs g w d o,
  QS w d p gs -> JI w p g -> 1 <= w -> Forall (fun c => cs_last c < I32MAX) (ps_status p) ->
  exists cf p1 o1 p2 o2 s3 gs3,
    confirmed_frame p = Ok cf /\
    handle_rollback_and_save predict p cf o = Ok (p1, o1) /\ p1 = with_sync p (ps_sync p1) /\
    send_confirmed_inputs_to_spectators p1 cf o1 = Ok (p2, o2) /\
    p2 = with_next_spec p1 (next_spec_after p cf) /\ o_requests o2 = o_requests o1 /\
    o_spec_sends o2 = o_spec_sends o1 ++ spec_sent p gs cf /\
    set_last_confirmed_frame (ps_sync p1) cf false = Ok s3 /\
    QS w d (with_sync p2 s3) gs3 /\ all_clean (s_queues s3) /\ map fst gs3 = map fst gs /\
    s_current s3 = s_current (ps_sync p) /\
    Forall2 (fun q q' => q_pred q' = q_pred q /\ q_first_incorrect q' = q_first_incorrect q) (s_queues (ps_sync p1)) (s_queues s3) /\
    s_current (ps_sync p1) = s_current (ps_sync p).
Proof.
  intros p gs g w d o HQS HJI Hw1p Hbnd.
  destruct (confirmed_frame_bounds false w d p gs HQS Hbnd) as (cf & Ecf & HLcf & Hcfg & _).
  destruct (dense_rollback p gs g w d o cf HQS HJI Hw1p HLcf) as (p1 & o1 & HR).
  destruct (rollback_confirm_tail false p gs w d o cf p1 o1 HQS HLcf Hcfg HR) as (p2 & o2 & s3 & gs3 & C).
  destruct HR as (Er & Hshape & _ & _ & _ & _ & Hc1 & _). pose proof (cf_cur C) as Hc3. rewrite Hc1 in Hc3.
  destruct C. exists cf, p1, o1, p2, o2, s3, gs3. auto 16.
Qed.

Definition locals_done (d : Z) (p : p2p) (gs : list ghost) : Prop :=
  forall h, In h (local_handles p) -> Done (s_current (ps_sync p)) d (s_queues (ps_sync p)) gs h.

Lemma gate_progress : forall sp w d p gs o,
  QSg sp w d p gs -> all_clean (s_queues (ps_sync p)) -> locals_done d p gs ->
  exists p' o', advance_if_allowed predict p o = Ok (p', o') /\ QSg sp w d p' gs /\
    all_clean (s_queues (ps_sync p')) /\ s_last_saved (ps_sync p') = s_last_saved (ps_sync p) /\
    s_last_confirmed (ps_sync p') = s_last_confirmed (ps_sync p) /\
    (s_current (ps_sync p') = s_current (ps_sync p) \/ s_current (ps_sync p') = s_current (ps_sync p) + 1).
Proof.
  intros sp w d p gs o HQS Hcl Hdone. unfold advance_if_allowed, frames_ahead.
  destruct (qs_w _ _ _ _ HQS) as (_ & -> & _).
  set (s := ps_sync p) in *. set (c := s_current s) in *. set (L := s_last_confirmed s) in *.
  destruct ((if L =? NULL then c else c - L) <? w) eqn:Eg; [|exists p, o; auto 8].
  pose proof (qs_conn _ _ _ _ HQS) as Hconn. pose proof (qs_qs _ _ _ _ HQS) as HQ. pose proof (qs_kinds _ _ _ _ HQS) as Hkinds.
  destruct (qs_n _ _ _ _ HQS) as (_ & _ & _ & Hn4). destruct (qs_frames _ _ _ _ HQS) as (HfL & Hfc & Hfw).
  fold s c L in HQ, HfL, Hfc, Hfw, Hkinds. pose proof (QsI_length _ _ _ _ HQ) as Hlq.
  destruct (qs_d _ _ _ _ HQS) as (Hd0 & _).
  destruct (sync_inputs_go_ok predict (ps_status p) (s_queues s) gs c L HQ Hcl ltac:(lia) Hconn Hfc ltac:(lia))
    as (qs' & ins & E & HQ' & Hcl' & _ & _ & Hsu & Hkn).
  unfold synchronized_inputs. fold c. rewrite E. cbn [res_bind].
  eexists; eexists. split; [reflexivity|]. rewrite with_pending_sync.
  split; [|cbn [with_sync ps_sync advance_frame with_current with_queues s_queues s_last_saved s_last_confirmed s_current]; fold c; auto 6].
  apply (QS_resync _ w d (with_pending p []) gs _ gs (QS_no_pending _ _ _ _ _ HQS)).
  - reflexivity.
  - cbn [advance_frame with_current with_queues s_current s_last_confirmed s_queues]. fold c L. exact HQ'.
  - reflexivity.
  - cbn [advance_frame with_current with_queues s_current s_last_confirmed]. fold c L.
    destruct (Z.eqb_spec L NULL); unfold NULL in *; lia.
  - cbn [advance_frame with_current with_queues s_current s_queues with_pending ps_kinds]. fold c.
    intros h k q' gh A B C. destruct (QsI_nth _ _ _ _ h gh HQ C) as (q & Bq & _).
    pose proof (Hkinds h k q gh A Bq C) as HK. destruct (Forall2_nth _ _ _ _ _ _ Hsu Bq B) as (D1 & U1).
    destruct k as [|e|e]; cbn [KI] in HK |- *; [|rewrite D1, U1; exact HK|exact HK].
    destruct HK as (Hdel & Hpn & _).
    assert (Hin : In (Z.of_nat h) (local_handles p)).
    { apply (local_handles_spec p _ (QS_nplayers _ _ _ _ _ HQS)). rewrite Nat2Z.id. split; [|exact A].
      assert (nth_error (ps_kinds p) h <> None) as X by congruence. apply nth_error_Some in X.
      rewrite (QS_nplayers _ _ _ _ _ HQS). lia. }
    pose proof (Hdone _ Hin) as Hdn. unfold Done in Hdn. rewrite Nat2Z.id in Hdn. destruct (Hdn q gh Bq C) as (Hh & Hu). fold s c in Hh, Hu.
    split; [congruence|]. split; [apply (Hkn h q gh q' Bq C B); [lia|exact Hpn]|]. right. left. lia.
  - intros h pi X. discriminate X.
  - eapply spec_ok_grow; [exact (qs_spec _ _ _ _ HQS)|reflexivity|reflexivity|reflexivity|apply grow_refl].
Qed.

End ProgressB.

Lemma QS_same_queues : forall sp w d p gs s',
  QSg sp w d p gs -> s_maxpred s' = s_maxpred (ps_sync p) -> s_queues s' = s_queues (ps_sync p) ->
  s_current s' = s_current (ps_sync p) -> s_last_confirmed s' = s_last_confirmed (ps_sync p) ->
  QSg sp w d (with_sync p s') gs.
Proof.
  intros sp w d p gs s' HQS Hm Hq Hc HL.
  apply (QS_resync _ w d p gs s' gs HQS Hm).
  - rewrite Hq, Hc, HL. exact (qs_qs _ _ _ _ HQS).
  - reflexivity.
  - rewrite Hc, HL. exact (qs_frames _ _ _ _ HQS).
  - rewrite Hq, Hc. exact (qs_kinds _ _ _ _ HQS).
  - rewrite Hc. exact (qs_pending _ _ _ _ HQS).
  - eapply spec_ok_grow; [exact (qs_spec _ _ _ _ HQS)|reflexivity|reflexivity|exact HL|apply grow_refl].
Qed.

Local Set Implicit Arguments.
(* q = p after the pending inputs of its local players were registered, gs' = the histories with them *)
Record registered (sp : bool) (w d : Z) (p : p2p) (gs : list ghost) (q : p2p) (gs' : list ghost) : Prop := {
  rg_qs : QSg sp w d q gs';
  rg_clean : all_clean (s_queues (ps_sync q));
  rg_rest : p_rest p q;
  rg_cur : s_current (ps_sync q) = s_current (ps_sync p);
  rg_conf : s_last_confirmed (ps_sync q) = s_last_confirmed (ps_sync p);
  rg_saved : s_last_saved (ps_sync q) = s_last_saved (ps_sync p);
  rg_done : forall h, In h (local_handles p) -> Done (s_current (ps_sync p)) d (s_queues (ps_sync q)) gs' h;
  rg_grows : grows_all (s_current (ps_sync p)) (s_queues (ps_sync p)) gs (s_queues (ps_sync q)) gs';
  rg_hist : hist_step d (ps_pending p) (local_handles p) gs gs';
}.

Lemma registered_out : forall sp w d p gs q gs' q', registered sp w d p gs q gs' -> out_only q q' -> registered sp w d p gs q' gs'.
Proof.
  intros sp w d p gs q gs' q' [Hqs Hcl Hrest Hc HL Hsv Hdone Hgrow Hhist] O. rewrite O.
  constructor; cbn [with_outgoing ps_sync]; try assumption. apply QS_outgoing. exact Hqs.
Qed.
Local Unset Implicit Arguments.

(* register_local_inputs: every local player's pending input is queued for its frame (p4), then the rounds
   that are complete leave for the remote players (p') *)
Lemma register_locals_progress : forall sp w d p gs o,
  QSg sp w d p gs -> all_clean (s_queues (ps_sync p)) ->
  (forall h, In h (local_handles p) -> exists pi, assoc_get (ps_pending p) h = Some pi) ->
  exists p4 p' o' gs', register_go p (local_handles p) = Ok p4 /\ send_ready_outgoing p4 o = Ok (p', o') /\
    out_only p4 p' /\ register_local_inputs p o = Ok (p', o') /\
    registered sp w d p gs p4 gs' /\ (OIg p gs -> OIg p4 gs').
Proof.
  intros sp w d p gs o HQS Hcl Hpend.
  assert (Hall : Forall (fun h => 0 <= h /\ nth_error (ps_kinds p) (Z.to_nat h) = Some KLocal /\
                                   exists pi, assoc_get (ps_pending p) h = Some pi) (local_handles p)).
  { apply Forall_forall. intros h Hin. destruct (proj1 (local_handles_spec p h (QS_nplayers _ _ _ _ _ HQS)) Hin) as (Hr & Hk).
    split; [lia|]. split; [exact Hk|exact (Hpend h Hin)]. }
  destruct (register_go_progress sp (local_handles p) w d p gs HQS Hcl (local_handles_nodup p) Hall)
    as (p4 & gs4 & E4 & HQS4 & Hcl4 & Hrest4 & Hc4 & HL4 & Hdone4 & Hgrow4 & Hhist4 & HO4).
  destruct (send_ready_outgoing_ok p4 o) as (p5 & o5 & E5 & O5).
  destruct (register_go_only _ _ _ E4) as (qs4 & st4 & og4 & ls4 & Hp4).
  exists p4, p5, o5, gs4. split; [exact E4|]. split; [exact E5|]. split; [exact O5|].
  split; [unfold register_local_inputs; rewrite E4; exact E5|]. split; [|exact HO4].
  constructor; try assumption; [rewrite Hp4; reflexivity|].
  intros h Hin. exact (Hdone4 h (local_handles_ge _ _ Hin) (or_introl Hin)).
Qed.

Lemma first_save_progress : forall sp w d p gs, QSg sp w d p gs -> 1 <= w ->
  exists p1 o1, first_save p = Ok (p1, o1) /\ QSg sp w d p1 gs /\
    ((s_current (ps_sync p) = 0 /\ p1 = with_sync p (saved (ps_sync p))) \/ (s_current (ps_sync p) <> 0 /\ p1 = p)).
Proof.
  intros sp w d p gs HQS Hw. unfold first_save. destruct (qs_w _ _ _ _ HQS) as (_ & Hmp & _). rewrite Hmp.
  assert ((w =? 0) = false) as -> by lia. cbn [negb]. rewrite andb_true_r.
  destruct (Z.eqb_spec (s_current (ps_sync p)) 0) as [Ec|Ec].
  - eexists; eexists. split; [apply save_p2p_ok; split; [lia|split; reflexivity]|].
    split; [apply QS_same_queues; [exact HQS|reflexivity..]|left; auto].
  - exists p, out0. split; [reflexivity|]. split; [exact HQS|right; auto].
Qed.

Lemma dense_first_save : forall p g w p1 o1, JI w p g -> first_save p = Ok (p1, o1) -> JI w p1 g.
Proof.
  intros p g w p1 o1 HJI E. unfold first_save in E.
  destruct (Z.eqb_spec (s_current (ps_sync p)) 0) as [Ec|Ec]; [|injection E as <- <-; exact HJI].
  destruct (negb _); [|injection E as <- <-; exact HJI]. apply save_p2p_ok in E. destruct E as (_ & -> & ->).
  destruct HJI as [Jw Jmp Jfr Jcur Jroll]. constructor; cbn [with_sync ps_maxpred ps_sync ps_sparse saved s_current s_maxpred]; try assumption.
  intros Hw'. destruct (Jroll Hw') as (J1 & J2 & K1 & K2 & K3 & K4). split; [exact J1|]. split; [exact J2|].
  unfold CellsI. cbn [saved s_maxpred s_cells]. rewrite updz_length.
  split; [exact K1|]. split; [exact K2|]. split; [exact K3|]. intros f Hf. lia.
Qed.

Section ProgressC.
Variable predict : Z -> Z.

(* advance_frame in rollback mode never fails, whichever way states are saved: the saving mode supplies the
   rollback step, and Q is what it wants to remember of it *)
Lemma advance_progress_g : forall sp p gs w d (Q : p2p -> Z -> p2p -> Prop),
  QSg sp w d p gs -> 1 <= w -> Forall (fun c => cs_last c < I32MAX) (ps_status p) ->
  (forall p1 o1 cf, first_save p = Ok (p1, o1) -> QSg sp w d p1 gs -> ps_status p1 = ps_status p ->
     confirmed_frame p1 = Ok cf -> s_last_confirmed (ps_sync p1) <= cf ->
     exists pr orr, HRpost predict p1 gs cf o1 pr orr /\ Q p1 cf pr) ->
  exists p' o r gs', advance predict p = Ok (p', o, r) /\ QSg sp w d p' gs' /\
    ((p' = p /\ gs' = gs) \/
     exists p1 cf pr, Q p1 cf pr /\ s_current (ps_sync p1) = s_current (ps_sync p) /\
       Forall (fun g : ghost => cf <= hlen (fst g) - 1) gs /\
       all_clean (s_queues (ps_sync p')) /\ s_last_saved (ps_sync p') = s_last_saved (ps_sync pr) /\ hlens_grow gs gs' /\
       s_last_confirmed (ps_sync p') = Z.min (if sp then Z.min cf (s_last_saved (ps_sync pr)) else cf) (s_current (ps_sync p)) /\
       (s_current (ps_sync p') = s_current (ps_sync p) \/ s_current (ps_sync p') = s_current (ps_sync p) + 1)).
Proof.
  intros sp p gs w d Q HQS Hw1p Hbnd Hroll.
  destruct (all_pending p) eqn:Hpend.
  2:{ exists p, out0, AInvalidRequest, gs. split; [|split; [exact HQS|left; auto]].
      exact (advance_not_pending predict p (proj1 (qs_mode _ _ _ _ HQS)) Hpend). }
  destruct (first_save_progress _ w d p gs HQS Hw1p) as (p1 & o1 & E1 & HQS1 & Hp1).
  assert (H1 : ps_status p1 = ps_status p /\ local_handles p1 = local_handles p /\ ps_pending p1 = ps_pending p /\
               s_current (ps_sync p1) = s_current (ps_sync p)) by (destruct Hp1 as [(_ & ->)|(_ & ->)]; repeat split).
  destruct H1 as (Hst1 & Hlh1 & Hpe1 & Hc1).
  destruct (confirmed_frame_bounds _ w d p1 gs HQS1 ltac:(rewrite Hst1; exact Hbnd)) as (cf & Ecf & HLcf & Hcfg & _).
  destruct (Hroll p1 o1 cf E1 HQS1 Hst1 Ecf HLcf) as (pr & orr & HR & HQr).
  assert (Hpend1 : forall h, In h (local_handles p1) -> exists pi, assoc_get (ps_pending p1) h = Some pi).
  { intros h Hin. rewrite Hpe1. apply all_pending_spec; [exact Hpend|]. rewrite <- Hlh1. exact Hin. }
  destruct (rollback_confirm_tail predict sp p1 gs w d o1 cf pr orr HQS1 HLcf Hcfg HR)
    as (p2 & o2 & s3 & gs3 & C).
  destruct HR as (Er & Hshape & _ & _ & _ & _ & Hcr & _).
  pose proof (cf_state C) as Hp2. pose proof (cf_confirm C) as E3. pose proof (cf_hist C) as Hmap3.
  pose proof (cf_cur C) as Hc3. pose proof (cf_last C) as HL3. rewrite Hcr in Hc3, HL3.
  assert (Hf2 : ps_sparse p2 = sp /\ ps_sync p2 = ps_sync pr /\ local_handles (with_sync p2 s3) = local_handles p1 /\
                ps_pending (with_sync p2 s3) = ps_pending p1).
  { rewrite Hp2, Hshape. destruct (qs_mode _ _ _ _ HQS1) as (_ & X & _). repeat split. exact X. }
  destruct Hf2 as (Hsp2 & Hsy2 & Hlh3 & Hpe3). rewrite <- Hsp2, <- Hsy2 in E3.
  set (p3 := with_sync p2 s3) in *.
  (* the local inputs *)
  destruct (register_locals_progress sp w d p3 gs3 o2 (cf_qs C) (cf_clean C)) as (p4 & p5 & o5 & gs4 & _ & _ & O5 & E45 & R4 & _).
  { intros h Hin. rewrite Hpe3. apply Hpend1. rewrite <- Hlh3. exact Hin. }
  pose proof (registered_out R4 O5) as R5.
  assert (Hgrow : hlens_grow gs gs4).
  { intros h g4 A. destruct (hist_step_hlens _ _ _ _ _ (rg_hist R5) h g4 A) as (g3 & B & Hle).
    destruct (map_fst_nth gs gs3 h g3 Hmap3 B) as (g0 & D & Ef). exists g0. split; [exact D|]. rewrite Ef. exact Hle. }
  (* the gate *)
  destruct (gate_progress predict sp w d p5 gs4 o5 (rg_qs R5) (rg_clean R5)) as (p' & o' & E6 & HQS' & Hcl' & Hsv' & HL' & Hc').
  { intros h Hin. rewrite (rg_cur R5). apply (rg_done R5). rewrite <- (local_handles_rest _ _ (rg_rest R5)). exact Hin. }
  pose proof (advance_rollback_frame_ok predict p1 o1 cf pr orr p2 o2 s3 p5 o5 _ Ecf Er (cf_send C) E3 E45 E6) as E7.
  pose proof (rg_cur R5) as Hc5. pose proof (rg_conf R5) as HL5. pose proof (rg_saved R5) as Hsv5.
  subst p3. cbn [with_sync ps_sync] in Hc5, HL5, Hsv5. rewrite Hc5, Hc3, Hc1 in Hc'. rewrite Hc1 in HL3.
  exists p', o', AOk, gs4. split; [|split; [exact HQS'|right]].
  - apply (advance_ok predict p p1 o1 p1); [exact (proj1 (qs_mode _ _ _ _ HQS))|exact Hpend|exact E1| |].
    + apply update_disconnects_noop; [exact (qs_conn _ _ _ _ HQS1)|exact (qs_gossip _ _ _ _ HQS1)].
    + destruct (qs_w _ _ _ _ HQS) as (_ & -> & _). assert ((w =? 0) = false) as -> by lia. exact E7.
  - exists p1, cf, pr. split; [exact HQr|]. split; [exact Hc1|]. split; [exact Hcfg|]. split; [exact Hcl'|].
    split; [rewrite Hsv', Hsv5; exact (cf_saved C)|]. split; [exact Hgrow|]. split; [congruence|exact Hc'].
Qed.

(* one advance_frame call of a dense-saving session in C01's space never fails, and re-establishes the invariant *)
Lemma advance_progress : forall p gs g w d,
  QS w d p gs -> JI w p g -> 1 <= w -> Forall (fun c => cs_last c < I32MAX) (ps_status p) ->
  exists p' o r gs' g', advance predict p = Ok (p', o, r) /\ QS w d p' gs' /\
    exec w g (o_requests o) = Some g' /\ JI w p' g'.
Proof.
  intros p gs g w d HQS HJI Hw1p Hbnd.
  destruct (advance_progress_g false p gs w d (fun _ _ _ => True) HQS Hw1p Hbnd) as (p' & o & r & gs' & E & HQS' & _).
  { intros p1 o1 cf E1 HQS1 _ _ HLcf.
    destruct (dense_rollback predict p1 gs g w d o1 cf HQS1 (dense_first_save p g w p1 o1 HJI E1) Hw1p HLcf) as (pr & orr & HR).
    exists pr, orr. auto. }
  destruct (advance_exec predict p p' o r g w E HJI) as (g' & Ex & HJI' & _).
  exists p', o, r, gs', g'. auto.
Qed.

End ProgressC.

(* an input of a remote player arrives for the next frame of that player, while the ring has room *)
Lemma remote_progress : forall sp w d p gs pl f v e,
  QSg sp w d p gs -> 0 <= pl < ps_nplayers p -> nth_error (ps_kinds p) (Z.to_nat pl) = Some (KRemote e) ->
  f = q_last_added (qnth (ps_sync p) pl) + 1 -> q_length (qnth (ps_sync p) pl) < QLEN ->
  exists p' gs', ev_input p pl f v = Ok p' /\ QSg sp w d p' gs' /\
    exists q hist low q', nth_error (s_queues (ps_sync p)) (Z.to_nat pl) = Some q /\
      nth_error gs (Z.to_nat pl) = Some (hist, low) /\ gs' = updz gs (Z.to_nat pl) (hist ++ [v], low) /\
      s_queues (ps_sync p') = updz (s_queues (ps_sync p)) (Z.to_nat pl) q' /\
      q_first_incorrect q' = fi_after q v (hlen hist) /\ q_pred q' = pred_after q v (hlen hist) /\
      s_current (ps_sync p') = s_current (ps_sync p) /\
      s_last_confirmed (ps_sync p') = s_last_confirmed (ps_sync p) /\ s_last_saved (ps_sync p') = s_last_saved (ps_sync p) /\
      q_last_requested q' = q_last_requested q.
Proof.
  intros sp w d p gs pl f v e HQS Hpl Hk Hf Hcap.
  destruct (qs_n _ _ _ _ HQS) as (Hn1 & _). pose proof (QsI_length _ _ _ _ (qs_qs _ _ _ _ HQS)) as Hlq.
  destruct (nth_error gs (Z.to_nat pl)) as [[hist low]|] eqn:Eg; [|apply nth_error_None in Eg; lia].
  destruct (QS_nth _ _ _ _ _ _ _ HQS Eg) as (q & st & Eq & Es & Hqi & Hls & Hdisc). cbn [fst snd] in Hqi, Hls.
  destruct (qs_kinds _ _ _ _ HQS _ _ _ _ Hk Eq Eg) as (Hdel & Hlu). cbn [fst] in Hlu.
  assert (Hqn : qnth (ps_sync p) pl = q) by (unfold qnth; erewrite nth_error_nth; [reflexivity|exact Eq]).
  assert (Hsn : stat_at p pl = st) by (unfold stat_at; erewrite nth_error_nth; [reflexivity|exact Es]).
  rewrite Hqn in Hf, Hcap.
  pose proof (qi_ring _ _ _ _ _ Hqi) as I. pose proof (hlen_nonneg hist) as Hnn.
  rewrite (ri_last _ _ _ I) in Hf. rewrite (ri_length _ _ _ I) in Hcap.
  destruct (add_input_nofill q hist low f v I ltac:(lia)) as (q' & Ea & I' & D' & U' & R' & F' & P').
  { destruct (Z.eq_dec (q_last_user q) NULL); [left; assumption|right; lia]. }
  { exact (qi_p1 _ _ _ _ _ Hqi). }
  { lia. }
  pose proof (qi_after_add _ _ _ _ _ v q' Hqi I' R' F' P') as Hqi'.
  unfold ev_input. assert (negb (pl <? ps_nplayers p) = false) as -> by lia. rewrite Hsn, Hdisc.
  assert (negb ((cs_last st =? NULL) || (cs_last st + 1 =? f)) = false) as -> by lia.
  assert (Ear : add_remote_input (ps_sync p) pl f v = Ok (with_queues (ps_sync p) (updz (s_queues (ps_sync p)) (Z.to_nat pl) q'))).
  { apply add_remote_input_ok. split; [lia|]. exists q', (hlen hist). rewrite Hqn. split; [exact Ea|reflexivity]. }
  rewrite Ear. cbn [res_bind].
  eexists. exists (updz gs (Z.to_nat pl) (hist ++ [v], low)). split; [reflexivity|].
  split; [|exists q, hist, low, q'; cbn [with_status with_sync with_queues ps_sync s_queues s_current s_last_confirmed s_last_saved]; repeat split; first [assumption|reflexivity]].
  apply (QS_set_player sp w d p gs (Z.to_nat pl) q' hist low (hist ++ [v]) (mkcs false f) HQS Eg Hqi'); [reflexivity|cbn [cs_last]; rewrite hlen_app; lia|rewrite hlen_app; lia|].
  intros k A. rewrite Hk in A. injection A as <-. cbn [KI]. rewrite hlen_app. split; [congruence|lia].
Qed.

Lemma local_progress : forall sp w d p gs h v,
  QSg sp w d p gs -> QSg sp w d (fst (api_add_local_input p h v)) gs /\ ps_sync (fst (api_add_local_input p h v)) = ps_sync p.
Proof.
  intros sp w d p gs h v HQS. unfold api_add_local_input.
  destruct (kind_at p h) as [[| |]|]; cbn [fst]; try (split; [exact HQS|reflexivity]).
  split; [|reflexivity]. eapply QS_ext; [exact HQS|reflexivity..|exact (qs_gossip _ _ _ _ HQS)|].
  intros h0 pi X. cbn [with_pending ps_pending] in X. rewrite assoc_get_put in X.
  destruct (h =? h0); [injection X as <-; reflexivity|exact (qs_pending _ _ _ _ HQS h0 pi X)].
Qed.

Lemma merged_connected : forall a b, connected a -> connected b ->
  connected (map (fun '(x, y) => mkcs (cs_disc y || cs_disc x) (Z.max (cs_last x) (cs_last y))) (combine a b)).
Proof.
  induction a as [|x a IH]; intros [|y b] Ha Hb; cbn [combine map]; try constructor.
  - inversion Ha; inversion Hb; subst. cbn [cs_disc]. unfold connected in *.
    match goal with H1 : cs_disc x = false, H2 : cs_disc y = false |- _ => rewrite H1, H2 end. reflexivity.
  - inversion Ha; inversion Hb; subst. apply IH; assumption.
Qed.

Lemma gossip_progress : forall sp w d p gs ep st, QSg sp w d p gs -> connected st -> QSg sp w d (gossip p ep st) gs.
Proof.
  intros sp w d p gs ep st HQS Hst. unfold gossip.
  destruct (nth_error (ps_remotes p) (Z.to_nat ep)) as [e|] eqn:Ee; [|exact HQS].
  pose proof (qs_gossip _ _ _ _ HQS) as F.
  eapply QS_ext; [exact HQS|reflexivity..| |exact (qs_pending _ _ _ _ HQS)]. cbn [with_remotes ps_remotes].
  apply Forall_updz; [exact F|]. cbn [ev_status]. apply merged_connected; [|exact Hst].
  rewrite Forall_forall in F. apply F. eapply nth_error_In. exact Ee.
Qed.

Lemma nth_error_start_queues : forall (f : Z * queue -> queue) m a h q,
  nth_error (map f (combine (zrange_from a m) (repeat q_new m))) h = Some q -> q = f (a + Z.of_nat h, q_new).
Proof.
  induction m as [|m IH]; intros a h q H; cbn [zrange_from repeat combine map] in H.
  - destruct h; discriminate.
  - destruct h as [|h]; cbn [nth_error] in H.
    + injection H as <-. f_equal. f_equal. lia.
    + rewrite (IH (a + 1) h q H). f_equal. f_equal. lia.
Qed.

Lemma Forall2_start_queues : forall (R : queue -> ghost -> Prop) (f : Z * queue -> queue) g m a,
  (forall h, R (f (h, q_new)) g) ->
  Forall2 R (map f (combine (zrange_from a m) (repeat q_new m))) (repeat g m).
Proof.
  induction m as [|m IH]; intros a H; cbn [zrange_from repeat combine map]; constructor; auto.
Qed.

Lemma QI_new : forall q, RInv q [] 0 -> pi_frame (q_pred q) = NULL -> q_first_incorrect q = NULL ->
  q_last_requested q = NULL -> QI 0 (-1) q [] 0.
Proof.
  intros q I P F R. constructor.
  - exact I.
  - left. exact P.
  - intros A. congruence.
  - intros A. congruence.
  - left. exact R.
  - lia.
  - unfold hlen. cbn. lia.
Qed.

Definition players_only (kinds : list pkind) : Prop :=
  Forall (fun k => match k with KSpectator _ => False | _ => True end) kinds.

(* the start state of any session without spectator kinds among the players: rollback mode with either
   saving mode, or lockstep (where the builder switches sparse saving off) *)
Lemma QS_start_any : forall sp n w d kinds eps nspec,
  0 <= w -> (w = 0 -> sp = false) -> 0 <= d -> Z.max 1 w + d + 3 <= QLEN -> 0 < n -> Z.of_nat (length kinds) = n -> players_only kinds ->
  QSg sp w d (session_start n w sp d kinds eps nspec) (repeat ([], 0) (Z.to_nat n)).
Proof.
  intros sp n w d kinds eps nspec Hw Hsp Hd Hcap Hn Hlen Hpl.
  unfold session_start, p2p_new, sync_new.
  constructor; cbn [with_running with_queues ps_maxpred ps_sync ps_running ps_sparse ps_spectators ps_disc_frame ps_nplayers
                    ps_kinds ps_status ps_remotes ps_pending s_maxpred s_current s_last_confirmed s_queues].
  - split; [lia|split; reflexivity].
  - split; assumption.
  - assert (((w =? 0) && sp) = false) as ->.
    { destruct (Z.eqb_spec w 0) as [E|E]; [rewrite (Hsp E)|]; reflexivity. }
    repeat split.
  - rewrite !repeat_length. repeat split; lia.
  - apply Forall_forall. intros s Hs. apply repeat_spec in Hs. subst s. reflexivity.
  - apply Forall_forall. intros e He. apply in_map_iff in He. destruct He as (hs & <- & _). cbn [ev_status].
    apply Forall_forall. intros s Hs. apply repeat_spec in Hs. subst s. reflexivity.
  - apply Forall2_start_queues. intros h. cbn [fst snd].
    destruct (nth_error kinds (Z.to_nat h)) as [[| |]|]; apply QI_new; try reflexivity; try exact RInv_new.
    eapply RInv_ext; [exact RInv_new|reflexivity..].
  - clear. induction (Z.to_nat n) as [|m IH]; cbn [repeat]; constructor; [reflexivity|exact IH].
  - unfold NULL. lia.
  - intros h k q gh A B C. apply nth_error_start_queues in B. cbn [Z.add] in B.
    apply nth_error_In, repeat_spec in C. subst gh. cbn [fst].
    rewrite Nat2Z.id, A in B. subst q.
    destruct k as [|e|e]; cbn [KI with_delay q_new q_delay q_pred q_last_user pi_frame blank].
    + split; [reflexivity|]. split; [reflexivity|]. left. repeat split.
    + split; [reflexivity|]. unfold hlen. cbn. reflexivity.
    + unfold players_only in Hpl. rewrite Forall_forall in Hpl. exact (Hpl _ (nth_error_In _ _ A)).
  - intros h pi X. discriminate X.
  - intros _. cbn [with_running ps_next_spec ps_sync with_queues s_last_confirmed]. split; [lia|]. split; [unfold NULL; lia|].
    apply Forall_forall. intros g Hg. pose proof (hlen_nonneg (fst g)). lia.
Qed.

Lemma QS_start_g : forall sp n w d kinds eps nspec,
  1 <= w -> 0 <= d -> w + d + 3 <= QLEN -> 0 < n -> Z.of_nat (length kinds) = n -> players_only kinds ->
  QSg sp w d (session_start n w sp d kinds eps nspec) (repeat ([], 0) (Z.to_nat n)).
Proof. intros sp n w d kinds eps nspec Hw Hd Hcap. apply QS_start_any; lia. Qed.

Lemma QS_confirmed_held : forall sp w d p gs, QSg sp w d p gs ->
  Forall (fun st => s_last_confirmed (ps_sync p) <= cs_last st) (ps_status p).
Proof.
  intros sp w d p gs H. apply Forall_forall. intros st Hin. apply In_nth_error in Hin. destruct Hin as (h & Hh).
  destruct (qs_n _ _ _ _ H) as (_ & _ & _ & Hn).
  destruct (nth_error_some_len gs (ps_status p) h st (eq_sym Hn) Hh) as (gh & Hg).
  destruct (QS_nth _ _ _ _ _ _ _ H Hg) as (q & st' & _ & Es & Hqi & Hl & _). rewrite Hh in Es. injection Es as <-.
  pose proof (qi_conf _ _ _ _ _ Hqi). lia.
Qed.

Lemma QS_local_gs : forall sp w d p gs, QSg sp w d p gs ->
  forall h, In h (local_handles p) -> exists gh, nth_error gs (Z.to_nat h) = Some gh.
Proof.
  intros sp w d p gs HQS h Hin. apply (local_handles_spec p h (QS_nplayers _ _ _ _ _ HQS)) in Hin. destruct Hin as (Hr & _).
  destruct (qs_n _ _ _ _ HQS) as (Hn1 & _). destruct (nth_error gs (Z.to_nat h)) as [gh|] eqn:E; [eauto|]. apply nth_error_None in E. lia.
Qed.

Lemma local_handles_kinds : forall p p', ps_nplayers p = Z.of_nat (length (ps_kinds p)) ->
  ps_nplayers p' = Z.of_nat (length (ps_kinds p')) -> ps_kinds p' = ps_kinds p -> local_handles p' = local_handles p.
Proof.
  intros p p' Hn Hn' Hk. unfold local_handles. rewrite Hk. apply filter_ext_in. intros h Hin.
  apply zrange_in in Hin. unfold kind_at. rewrite Hk in Hn'.
  assert ((h <? 0) = false) as -> by lia. assert ((h <? ps_nplayers p') = true) as -> by lia.
  assert ((h <? ps_nplayers p) = true) as -> by lia. rewrite Hk. reflexivity.
Qed.

Lemma QS_same_len : forall sp w d p gs p' gs', QSg sp w d p gs -> QSg sp w d p' gs' -> ps_kinds p' = ps_kinds p ->
  length gs' = length gs.
Proof.
  intros sp w d p gs p' gs' H H' Hk. destruct (qs_n _ _ _ _ H) as (_ & _ & A & _). destruct (qs_n _ _ _ _ H') as (_ & _ & B & _). congruence.
Qed.

Lemma QS_last_added : forall sp w d p gs pl hist low, QSg sp w d p gs -> nth_error gs (Z.to_nat pl) = Some (hist, low) ->
  q_last_added (qnth (ps_sync p) pl) = hlen hist - 1.
Proof.
  intros sp w d p gs pl hist low HQS Eg. pose proof (qs_qs _ _ _ _ HQS) as HQ.
  destruct (QsI_nth _ _ _ _ (Z.to_nat pl) (hist, low) HQ Eg) as (q & Eq & Hqi). cbn [fst snd] in Hqi.
  unfold qnth. rewrite (nth_error_nth _ _ _ Eq). exact (ri_last _ _ _ (qi_ring _ _ _ _ _ Hqi)).
Qed.

(* which operations the theorems cover, decided on the current state:
   - add_local_input with any handle and value, advance_frame at any time (as long as no frame
     counter is about to reach i32::MAX),
   - the next input of a remote player while that player's ring has room (honest peers deliver each
     player's inputs in frame order; the window protocol keeps the ring from filling up),
   - gossip that reports nobody as disconnected.
   Disconnects and delay changes are outside the space. *)
Definition op_ok (p : p2p) (o : sop) : bool :=
  match o with
  | SLocal _ _ => true
  | SAdvance => forallb (fun st => cs_last st + 1 <? I32MAX) (ps_status p)
  | SRemote pl f _ =>
      (0 <=? pl) && (pl <? ps_nplayers p) &&
      (match nth_error (ps_kinds p) (Z.to_nat pl) with Some (KRemote _) => true | _ => false end) &&
      (f =? q_last_added (qnth (ps_sync p) pl) + 1) && (q_length (qnth (ps_sync p) pl) <? QLEN)
  | SGossip _ st => forallb (fun s => negb (cs_disc s)) st
  | _ => false
  end.

Lemma op_ok_advance : forall p, op_ok p SAdvance = true -> Forall (fun c => cs_last c + 1 < I32MAX) (ps_status p).
Proof.
  intros p H. apply Forall_forall. intros s Hs. cbn [op_ok] in H. rewrite forallb_forall in H. specialize (H s Hs). lia.
Qed.

Lemma op_ok_gossip : forall p ep st, op_ok p (SGossip ep st) = true -> connected st.
Proof.
  intros p ep st H. apply Forall_forall. intros s Hs. cbn [op_ok] in H. rewrite forallb_forall in H.
  specialize (H s Hs). destruct (cs_disc s); [discriminate|reflexivity].
Qed.

Lemma op_ok_remote : forall p pl f v, op_ok p (SRemote pl f v) = true ->
  0 <= pl < ps_nplayers p /\ (exists e, nth_error (ps_kinds p) (Z.to_nat pl) = Some (KRemote e)) /\
  f = q_last_added (qnth (ps_sync p) pl) + 1 /\ q_length (qnth (ps_sync p) pl) < QLEN.
Proof.
  intros p pl f v H. cbn [op_ok] in H.
  destruct (nth_error (ps_kinds p) (Z.to_nat pl)) as [[|e|e]|]; rewrite ?andb_false_r in H; try discriminate.
  split; [lia|]. split; [exists e; reflexivity|lia].
Qed.

Lemma op_ok_advance_weak : forall p, op_ok p SAdvance = true -> Forall (fun c => cs_last c < I32MAX) (ps_status p).
Proof. intros p H. eapply Forall_impl; [|exact (op_ok_advance p H)]. cbv beta. intros c Hc. lia. Qed.

Section Run.
Variable predict : Z -> Z.

(* srun, except that an operation outside the space ends the run with Err *)
Fixpoint srun_in (p : p2p) (ops : list sop) : res (p2p * list (pout * apires)) :=
  match ops with
  | [] => Ok (p, [])
  | o :: r =>
    if op_ok p o then
      res_bind (sstep predict p o) (fun s =>
        res_bind (srun_in (sr_state s) r) (fun '(p', outs) => Ok (p', (sr_out s, sr_api s) :: outs)))
    else Err
  end.

Lemma srun_in_preserves : forall (I : p2p -> list ghost -> game -> Prop) (w : Z),
  (forall p gs g o, I p gs g -> op_ok p o = true ->
     exists s gs' g', sstep predict p o = Ok s /\ exec w g (o_requests (sr_out s)) = Some g' /\ I (sr_state s) gs' g') ->
  forall ops p gs g, I p gs g ->
  srun_in p ops = Err \/
  exists p' outs gs' g', srun_in p ops = Ok (p', outs) /\ srun predict p ops = Ok (p', outs) /\
    exec_outs w g outs = Some g' /\ I p' gs' g'.
Proof.
  intros I w Hstep. induction ops as [|o ops IH]; intros p gs g HI.
  - right. exists p, [], gs, g. cbn [srun_in srun exec_outs]. auto.
  - cbn [srun_in srun]. destruct (op_ok p o) eqn:Hok; [|left; reflexivity].
    destruct (Hstep p gs g o HI Hok) as (s & gs1 & g1 & Es & Ex1 & HI1).
    rewrite Es. cbn [res_bind].
    destruct (IH (sr_state s) gs1 g1 HI1) as [Herr|(p' & outs & gs' & g' & E1 & E2 & Ex & HI')].
    + left. rewrite Herr. reflexivity.
    + right. rewrite E1, E2. cbn [res_bind].
      exists p', ((sr_out s, sr_api s) :: outs), gs', g'. split; [reflexivity|]. split; [reflexivity|].
      split; [cbn [exec_outs]; rewrite Ex1; exact Ex|exact HI'].
Qed.

Lemma other_ops_progress : forall sp w d p gs o,
  QSg sp w d p gs -> op_ok p o = true -> o <> SAdvance ->
  exists s gs', sstep predict p o = Ok s /\ QSg sp w d (sr_state s) gs' /\ o_requests (sr_out s) = [] /\
    ((gs' = gs /\ ps_sync (sr_state s) = ps_sync p) \/
     exists pl v q hist low q', nth_error (s_queues (ps_sync p)) (Z.to_nat pl) = Some q /\
       nth_error gs (Z.to_nat pl) = Some (hist, low) /\ gs' = updz gs (Z.to_nat pl) (hist ++ [v], low) /\
       s_queues (ps_sync (sr_state s)) = updz (s_queues (ps_sync p)) (Z.to_nat pl) q' /\
       q_first_incorrect q' = fi_after q v (hlen hist) /\ q_pred q' = pred_after q v (hlen hist) /\
       q_last_requested q' = q_last_requested q /\
       s_current (ps_sync (sr_state s)) = s_current (ps_sync p) /\
       s_last_confirmed (ps_sync (sr_state s)) = s_last_confirmed (ps_sync p) /\
       s_last_saved (ps_sync (sr_state s)) = s_last_saved (ps_sync p)).
Proof.
  intros sp w d p gs o HQS Hok Hadv. destruct o as [h v|pl f v|ep st|hs|h|h dd|]; try discriminate Hok; [| | |contradiction].
  - destruct (local_progress _ w d p gs h v HQS) as (HQ' & Hs).
    cbn [sstep]. destruct (api_add_local_input p h v) as [p' r] eqn:E. cbn [fst] in *.
    exists (mksr p' out0 r), gs. split; [reflexivity|]. split; [exact HQ'|]. split; [reflexivity|left; auto].
  - destruct (op_ok_remote _ _ _ _ Hok) as (Hpl & (e & Ek) & Hf & Hcap).
    destruct (remote_progress _ w d p gs pl f v e HQS Hpl Ek Hf Hcap)
      as (p' & gs' & E & HQ' & q & hist & low & q' & Eq & Eg & Egs & Eqs & Hfi & Hpr & Hc & HL & Hsv & Hrq).
    cbn [sstep]. rewrite E. cbn [res_bind].
    exists (mksr p' out0 AOk), gs'. split; [reflexivity|]. split; [exact HQ'|]. split; [reflexivity|].
    right. exists pl, v, q, hist, low, q'. cbn [sr_state]. auto 12.
  - cbn [sstep]. exists (mksr (gossip p ep st) out0 AOk), gs. split; [reflexivity|]. cbn [sr_state sr_out].
    split; [|split; [reflexivity|left; split; [reflexivity|apply gossip_sync]]].
    exact (gossip_progress _ _ _ _ _ _ _ HQS (op_ok_gossip _ _ _ Hok)).
Qed.

Lemma step_in_space : forall p gs g w d o,
  QS w d p gs -> JI w p g -> 1 <= w -> op_ok p o = true ->
  exists s gs' g', sstep predict p o = Ok s /\ QS w d (sr_state s) gs' /\
    exec w g (o_requests (sr_out s)) = Some g' /\ JI w (sr_state s) g'.
Proof.
  intros p gs g w d o HQS HJI Hw1p Hok.
  assert (Hgoal : exists s gs', sstep predict p o = Ok s /\ QS w d (sr_state s) gs').
  { destruct (sop_advance_dec o) as [->|Hadv].
    - destruct (advance_progress predict p gs g w d HQS HJI Hw1p (op_ok_advance_weak _ Hok)) as (p' & o & r & gs' & g' & E & HQ' & _).
      cbn [sstep]. rewrite E. exists (mksr p' o r), gs'. split; [reflexivity|exact HQ'].
    - destruct (other_ops_progress _ w d p gs o HQS Hok Hadv) as (s & gs' & Es & HQ' & _). eauto. }
  destruct Hgoal as (s & gs' & Es & HQ'). destruct (sstep_exec predict p o s g w Es HJI) as (g' & Ex & HJ' & _).
  exists s, gs', g'. auto.
Qed.

(* no modelled assert fires on any run inside the space, and the request lists of the whole run are
   executable by the game, one after the other *)
Theorem run_in_space : forall ops p gs g w d,
  QS w d p gs -> JI w p g -> 1 <= w ->
  srun_in p ops = Err \/
  exists p' outs gs' g', srun_in p ops = Ok (p', outs) /\ srun predict p ops = Ok (p', outs) /\
    exec_outs w g outs = Some g' /\ QS w d p' gs' /\ JI w p' g'.
Proof.
  intros ops p gs g w d HQS HJI Hw1p.
  refine (srun_in_preserves (fun p gs g => QS w d p gs /\ JI w p g) w _ ops p gs g (conj HQS HJI)).
  intros p0 gs0 g0 o (HQ0 & HJ0) Hok.
  destruct (step_in_space p0 gs0 g0 w d o HQ0 HJ0 Hw1p Hok) as (s & gs' & g' & A & B & C & D). exists s, gs', g'. auto.
Qed.

End Run.
