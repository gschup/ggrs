(* The list helpers of the models: Sync.updz (replace the element at an index) and P2P.zrange_from
   (a, a+1, .., a+n-1). *)
From GGRS Require Import Base Queue Sync P2P.
From GGRS Require Import LiaSetup.
Open Scope Z_scope.

Lemma updz_length {A} : forall (l : list A) i x, length (updz l i x) = length l.
Proof. induction l as [|y r IH]; intros [|i] x; cbn; auto. Qed.

Lemma nth_updz_same {A} : forall (l : list A) i x d, (i < length l)%nat -> nth i (updz l i x) d = x.
Proof. induction l as [|y r IH]; intros [|i] x d H; cbn in *; try lia; auto. apply IH. lia. Qed.

Lemma nth_updz_other {A} : forall (l : list A) i j x d, i <> j -> nth j (updz l i x) d = nth j l d.
Proof. induction l as [|y r IH]; intros [|i] [|j] x d H; cbn; auto; congruence. Qed.

Lemma nth_error_updz_same {A} : forall (l : list A) i x, (i < length l)%nat -> nth_error (updz l i x) i = Some x.
Proof. induction l as [|y l IH]; intros [|i] x H; cbn in *; try lia; auto. apply IH. lia. Qed.

Lemma nth_error_updz_other {A} : forall (l : list A) i j x, i <> j -> nth_error (updz l i x) j = nth_error l j.
Proof. induction l as [|y l IH]; intros [|i] [|j] x H; cbn; auto; try congruence. Qed.

Lemma updz_same {A} : forall (l : list A) i x, nth_error l i = Some x -> updz l i x = l.
Proof.
  induction l as [|y l IH]; intros [|i] x H; cbn in *; try discriminate.
  - injection H as ->. reflexivity.
  - rewrite (IH i x H). reflexivity.
Qed.

Lemma updz_nth_self {A} : forall (l : list A) i d, updz l i (nth i l d) = l.
Proof. induction l as [|y r IH]; intros [|i] d; cbn; auto. f_equal. apply IH. Qed.

Lemma map_updz {A B} (f : A -> B) : forall (l : list A) i x, map f (updz l i x) = updz (map f l) i (f x).
Proof. induction l as [|y r IH]; intros [|i] x; cbn; auto. f_equal. apply IH. Qed.

Lemma updz_app {A} : forall (a : list A) x y b, updz (a ++ x :: b) (length a) y = a ++ y :: b.
Proof. induction a as [|z a IH]; intros; cbn; [reflexivity|]. rewrite IH. reflexivity. Qed.

Lemma updz_comm {A} : forall (l : list A) i j x y, i <> j -> updz (updz l i x) j y = updz (updz l j y) i x.
Proof.
  induction l as [|a l IH]; intros [|i] [|j] x y H; cbn [updz]; try reflexivity; try congruence.
  rewrite IH by congruence. reflexivity.
Qed.

Lemma Forall_updz {A} (P : A -> Prop) : forall l i x, Forall P l -> P x -> Forall P (updz l i x).
Proof.
  induction l as [|y r IH]; intros [|i] x Hl Hx; cbn; auto; inversion Hl; subst; constructor; auto.
Qed.

Lemma Forall2_updz {A B} (R : A -> B -> Prop) : forall l1 l2 i x,
  Forall2 R l1 l2 -> (forall a, nth_error l1 i = Some a -> forall b, nth_error l2 i = Some b -> R x b) ->
  Forall2 R (updz l1 i x) l2.
Proof.
  induction l1 as [|a l1 IH]; intros l2 i x H Hx; inversion H; subst; cbn [updz]; [constructor|].
  destruct i as [|k].
  - constructor; [apply (Hx a eq_refl y eq_refl)|assumption].
  - constructor; [assumption|]. apply IH; [assumption|]. intros a' Ha b Hb. apply (Hx a' Ha b Hb).
Qed.

Lemma Forall2_updz2 {A B} (R : A -> B -> Prop) : forall l1 l2 i x y,
  Forall2 R l1 l2 -> R x y -> Forall2 R (updz l1 i x) (updz l2 i y).
Proof.
  induction l1 as [|a l1 IH]; intros l2 i x y H Hxy; inversion H; subst; cbn [updz]; [constructor|].
  destruct i as [|k]; constructor; auto.
Qed.

Lemma zrange_length : forall n a, length (zrange_from a n) = n.
Proof. induction n as [|n IH]; intro a; cbn [zrange_from length]; auto. Qed.

Lemma zrange_nth : forall n a i d, (i < n)%nat -> nth i (zrange_from a n) d = a + Z.of_nat i.
Proof.
  induction n as [|n IH]; intros a i d H; [lia|].
  destruct i as [|i]; cbn [zrange_from nth]; [lia|]. rewrite IH by lia. lia.
Qed.

Lemma nth_map_zrange : forall {A} (F : Z -> A) (N : nat) (a : Z) (k : nat) (dflt : A), (k < N)%nat ->
  nth k (map F (zrange_from a N)) dflt = F (a + Z.of_nat k).
Proof.
  intros A F N a k dflt Hk. rewrite (nth_indep _ dflt (F 0)) by (rewrite map_length, zrange_length; exact Hk).
  rewrite map_nth, zrange_nth by exact Hk. reflexivity.
Qed.

Lemma zrange_in : forall n a h, In h (zrange_from a n) <-> a <= h < a + Z.of_nat n.
Proof.
  induction n as [|n IH]; intros a h; cbn [zrange_from In]; [lia|].
  rewrite IH. lia.
Qed.

Lemma zrange_ge : forall n a h, In h (zrange_from a n) -> a <= h.
Proof. intros n a h H. apply zrange_in in H. apply H. Qed.

Lemma zrange_nodup : forall n a, NoDup (zrange_from a n).
Proof.
  induction n as [|n IH]; intro a; cbn [zrange_from]; constructor; [|apply IH].
  rewrite zrange_in. lia.
Qed.

Lemma zrange_app : forall n m a, zrange_from a (n + m) = zrange_from a n ++ zrange_from (a + Z.of_nat n) m.
Proof.
  induction n as [|n IH]; intros m a.
  - cbn [plus zrange_from app]. f_equal. lia.
  - cbn [plus zrange_from app]. f_equal. rewrite IH. f_equal. f_equal. lia.
Qed.

Lemma zrange_S : forall n a, zrange_from a (S n) = zrange_from a n ++ [a + Z.of_nat n].
Proof. intros n a. rewrite <- Nat.add_1_r, zrange_app. reflexivity. Qed.

Lemma existsb_zrange : forall n a x, existsb (Z.eqb x) (zrange_from a n) = (a <=? x) && (x <? a + Z.of_nat n).
Proof.
  intros n a x. apply eq_true_iff_eq. rewrite existsb_exists, andb_true_iff, Z.leb_le, Z.ltb_lt, <- zrange_in.
  split; [intros (y & Hy & E); apply Z.eqb_eq in E; subst; exact Hy|].
  intro Hx. exists x. split; [exact Hx|apply Z.eqb_refl].
Qed.
