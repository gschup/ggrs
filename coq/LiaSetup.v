(* lia as the proof files use it.  ZifyBool's own post hook case-splits on every boolean term in
   lia's sight, which is exponential in the contexts of these proofs, and lia needs none of it: the
   hook is emptied.  An `Ltac ::=` is replayed whenever the file that holds it is imported, so this
   file is imported after anything that imports ZifyBool. *)
From Coq Require Export Lia ZifyBool ZifyNat ZifyN.
Ltac Zify.zify_post_hook ::= idtac.
