(* The binary32 average of TimeSync.v read in the reals, through Flocq's B2R.
   Rounding to nearest is monotone and fixes the integers below 2^24, so a value enclosed by two such
   integers stays enclosed after every operation; it is odd, so swapping the windows negates the result.
   The theorems at the end speak of integers only. *)
From Coq Require Import ZArith Reals Lia Lra.
From Flocq Require Import Core IEEE754.BinarySingleNaN.
From GGRS Require Import Base Consts TimeSync.
Local Open Scope R_scope.

Local Notation fexp := (SpecFloat.fexp 24 128).
Local Notation rnd := (round radix2 fexp (round_mode mode_NE)).

Local Instance f32_fexp_valid : Valid_exp fexp := fexp_correct 24 128 ts_prec_gt_0.

Lemma f32_format_IZR : forall z, (Z.abs z < 2 ^ 24)%Z -> generic_format radix2 fexp (IZR z).
Proof.
  intros z Hz. apply (generic_format_FLT radix2 (SpecFloat.emin 24 128) 24).
  exists (Float radix2 z 0).
  - unfold F2R. simpl. ring.
  - exact Hz.
  - discriminate.
Qed.

Lemma rnd_between : forall a b x,
  (Z.abs a < 2 ^ 24)%Z -> (Z.abs b < 2 ^ 24)%Z ->
  IZR a <= x <= IZR b -> IZR a <= rnd x <= IZR b.
Proof.
  intros a b x Ha Hb [Hax Hxb]. split.
  - apply round_ge_generic; auto using f32_format_IZR with typeclass_instances.
  - apply round_le_generic; auto using f32_format_IZR with typeclass_instances.
Qed.

Lemma rnd_opp : forall x, rnd (- x) = - rnd x.
Proof. exact (round_NE_opp radix2 fexp). Qed.

(* the overflow test of Flocq's correctness theorems *)
Lemma f32_no_overflow : forall a b x,
  (Z.abs a < 2 ^ 24)%Z -> (Z.abs b < 2 ^ 24)%Z ->
  IZR a <= x <= IZR b -> Rlt_bool (Rabs x) (bpow radix2 128) = true.
Proof.
  intros a b x Ha Hb Hx. apply Rlt_bool_true.
  apply Rlt_le_trans with (bpow radix2 24); [|apply bpow_le; discriminate].
  change (bpow radix2 24) with (IZR (2 ^ 24)).
  apply IZR_lt in Ha, Hb. rewrite abs_IZR in Ha, Hb.
  apply Rabs_def2 in Ha, Hb. apply Rabs_def1; lra.
Qed.

Lemma f32_of_Z_exact : forall z, (Z.abs z < 2 ^ 24)%Z ->
  is_finite (f32_of_Z z) = true /\ B2R (f32_of_Z z) = IZR z.
Proof.
  intros z Hz.
  pose proof (binary_normalize_correct 24 128 ts_prec_gt_0 ts_prec_lt_emax mode_NE z 0 false) as H.
  cbv zeta in H. fold (f32_of_Z z) in H.
  replace (F2R (Float radix2 z 0)) with (IZR z) in H by (unfold F2R; simpl; ring).
  rewrite round_generic in H by auto using f32_format_IZR with typeclass_instances.
  rewrite (f32_no_overflow z z) in H by (auto; lra).
  tauto.
Qed.

Lemma f32_div_correct : forall a b x y,
  (Z.abs a < 2 ^ 24)%Z -> (Z.abs b < 2 ^ 24)%Z ->
  is_finite x = true -> B2R y <> 0 ->
  IZR a <= B2R x / B2R y <= IZR b ->
  is_finite (f32_div x y) = true /\ B2R (f32_div x y) = rnd (B2R x / B2R y).
Proof.
  intros a b x y Ha Hb Fx Hy Hq.
  pose proof (Bdiv_correct 24 128 ts_prec_gt_0 ts_prec_lt_emax mode_NE x y Hy) as H.
  fold (f32_div x y) in H.
  rewrite (f32_no_overflow a b) in H by auto using rnd_between.
  rewrite Fx in H. tauto.
Qed.

Lemma f32_sub_correct : forall a b x y,
  (Z.abs a < 2 ^ 24)%Z -> (Z.abs b < 2 ^ 24)%Z ->
  is_finite x = true -> is_finite y = true ->
  IZR a <= B2R x - B2R y <= IZR b ->
  is_finite (f32_sub x y) = true /\ B2R (f32_sub x y) = rnd (B2R x - B2R y).
Proof.
  intros a b x y Ha Hb Fx Fy Hd.
  pose proof (Bminus_correct 24 128 ts_prec_gt_0 ts_prec_lt_emax mode_NE x y Fx Fy) as H.
  fold (f32_sub x y) in H.
  rewrite (f32_no_overflow a b) in H by auto using rnd_between.
  tauto.
Qed.

Lemma i32_of_f32_trunc : forall x,
  is_finite x = true ->
  (TS_I32_MIN <= Ztrunc (B2R x) <= TS_I32_MAX)%Z ->
  i32_of_f32 x = Ztrunc (B2R x).
Proof.
  intros x Fx Hr.
  assert (Ht : Btrunc x = Ztrunc (B2R x)).
  { apply eq_IZR. rewrite (Btrunc_correct 24 128 ts_prec_lt_emax). apply round_FIX_IZR. }
  destruct x; try discriminate; unfold i32_of_f32.
  - exact Ht.
  - rewrite Ht. lia.
Qed.

Lemma ts_window_avg_between : forall s W lo hi,
  (0 < W < 2 ^ 24)%Z -> (Z.abs s < 2 ^ 24)%Z ->
  (Z.abs lo < 2 ^ 24)%Z -> (Z.abs hi < 2 ^ 24)%Z ->
  (W * lo <= s <= W * hi)%Z ->
  is_finite (ts_window_avg s W) = true /\ IZR lo <= B2R (ts_window_avg s W) <= IZR hi.
Proof.
  intros s W lo hi HW Hs Hlo Hhi [Hl Hh]. unfold ts_window_avg.
  destruct (f32_of_Z_exact s Hs) as [Fs Rs]. destruct (f32_of_Z_exact W ltac:(lia)) as [_ RW].
  assert (HW0 : 0 < IZR W) by (apply IZR_lt; lia).
  assert (Hq : IZR lo <= B2R (f32_of_Z s) / B2R (f32_of_Z W) <= IZR hi).
  { rewrite Rs, RW. apply IZR_le in Hl, Hh. rewrite mult_IZR in Hl, Hh.
    split; apply Rmult_le_reg_r with (IZR W); try assumption;
      replace (IZR s / IZR W * IZR W) with (IZR s) by (field; lra); lra. }
  destruct (f32_div_correct lo hi (f32_of_Z s) (f32_of_Z W) Hlo Hhi Fs ltac:(lra) Hq) as [F R].
  split; [exact F|]. rewrite R. apply rnd_between; assumption.
Qed.

(* ts_meet on finite averages, as a function of their real difference *)
Definition ts_meet_real (d : R) : Z := Ztrunc (rnd (rnd d / 2)).

Lemma ts_meet_real_opp : forall d, ts_meet_real (- d) = (- ts_meet_real d)%Z.
Proof.
  intros d. unfold ts_meet_real.
  rewrite rnd_opp. replace (- rnd d / 2) with (- (rnd d / 2)) by lra.
  rewrite rnd_opp. apply Ztrunc_opp.
Qed.

Lemma ts_meet_spec : forall la ra lo hi,
  is_finite la = true -> is_finite ra = true ->
  (Z.abs (2 * lo) < 2 ^ 24)%Z -> (Z.abs (2 * hi) < 2 ^ 24)%Z ->
  IZR (2 * lo) <= B2R ra - B2R la <= IZR (2 * hi) ->
  ts_meet la ra = ts_meet_real (B2R ra - B2R la) /\
  (lo <= ts_meet_real (B2R ra - B2R la) <= hi)%Z.
Proof.
  intros la ra lo hi Fl Fr Hlo Hhi Hd. unfold ts_meet, ts_meet_real.
  destruct (f32_sub_correct _ _ ra la Hlo Hhi Fr Fl Hd) as [Fs Rs].
  set (d := B2R ra - B2R la) in *.
  apply (rnd_between _ _ _ Hlo Hhi) in Hd. rewrite 2 mult_IZR in Hd.
  destruct (f32_of_Z_exact 2 eq_refl) as [_ R2].
  assert (Hh : IZR lo <= B2R (f32_sub ra la) / B2R (f32_of_Z 2) <= IZR hi) by (rewrite Rs, R2; lra).
  destruct (f32_div_correct lo hi (f32_sub ra la) (f32_of_Z 2) ltac:(lia) ltac:(lia) Fs ltac:(lra) Hh)
    as [Fq Rq].
  apply (rnd_between lo hi) in Hh; try lia. rewrite Rs, R2 in Rq, Hh.
  assert (Ht : (lo <= Ztrunc (rnd (rnd d / 2)) <= hi)%Z).
  { rewrite <- (Ztrunc_IZR lo), <- (Ztrunc_IZR hi). split; apply Ztrunc_le; lra. }
  split; [|exact Ht].
  rewrite i32_of_f32_trunc; rewrite ?Rq; unfold TS_I32_MIN, TS_I32_MAX; auto; lia.
Qed.

Local Open Scope Z_scope.

Lemma window_sum_small : forall W lo hi s m B,
  0 < W -> W * lo <= s <= W * hi -> Z.abs lo <= m -> Z.abs hi <= m -> W * m < B -> Z.abs s < B.
Proof.
  intros W lo hi s m B HW [Hl Hh] Hlo Hhi HB.
  assert (W * hi <= W * m) by (apply Z.mul_le_mono_nonneg_l; lia).
  assert (W * - lo <= W * m) by (apply Z.mul_le_mono_nonneg_l; lia).
  lia.
Qed.

Theorem ts_meet_window_band : forall W j r sl sr,
  0 < W < 2 ^ 24 -> 0 <= r -> W * (Z.abs j + r) < 2 ^ 23 ->
  W * (- j - r) <= sl <= W * (- j + r) ->
  W * (j - r) <= sr <= W * (j + r) ->
  j - r <= ts_meet (ts_window_avg sl W) (ts_window_avg sr W) <= j + r.
Proof.
  intros W j r sl sr HW Hr HM Hl Hs.
  assert (HM' : Z.abs j + r < 2 ^ 23) by nia.
  pose proof (window_sum_small W _ _ sl (Z.abs j + r) _ (proj1 HW) Hl ltac:(lia) ltac:(lia) HM) as Bl.
  pose proof (window_sum_small W _ _ sr (Z.abs j + r) _ (proj1 HW) Hs ltac:(lia) ltac:(lia) HM) as Br.
  destruct (ts_window_avg_between sl W (- j - r) (- j + r)) as [Fl Rl]; try lia.
  destruct (ts_window_avg_between sr W (j - r) (j + r)) as [Fr Rr]; try lia.
  destruct (ts_meet_spec _ _ (j - r) (j + r) Fl Fr) as [E B]; try lia.
  rewrite !mult_IZR, !plus_IZR, !minus_IZR, ?opp_IZR in *. lra.
Qed.

Theorem ts_meet_window_antisym : forall W sl sr,
  0 < W < 2 ^ 24 -> Z.abs sl < 2 ^ 23 -> Z.abs sr < 2 ^ 23 ->
  ts_meet (ts_window_avg sr W) (ts_window_avg sl W) =
  - ts_meet (ts_window_avg sl W) (ts_window_avg sr W).
Proof.
  intros W sl sr HW Hl Hr.
  set (M := Z.max (Z.abs sl) (Z.abs sr)).
  destruct (ts_window_avg_between sl W (- M) M) as [Fl Rl]; try nia.
  destruct (ts_window_avg_between sr W (- M) M) as [Fr Rr]; try nia.
  rewrite opp_IZR in Rl, Rr.
  destruct (ts_meet_spec _ _ (- M) M Fl Fr) as [E _]; try lia.
  { rewrite !mult_IZR, opp_IZR. lra. }
  destruct (ts_meet_spec _ _ (- M) M Fr Fl) as [E' _]; try lia.
  { rewrite !mult_IZR, opp_IZR. lra. }
  rewrite E, E', <- ts_meet_real_opp. f_equal. lra.
Qed.
