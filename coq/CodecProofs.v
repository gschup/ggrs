From GGRS Require Import Base Varint Rle Codec Consts VarintProofs RleProofs.
From GGRS Require Import LiaSetup.
Open Scope N_scope.

Lemma xor_zip_length : forall base i, length (xor_zip base i) = length i.
Proof.
  induction base as [|b bs IH]; intros [|i is_]; cbn; auto.
Qed.

Lemma xor_zip_invol : forall base i, xor_zip base (xor_zip base i) = i.
Proof.
  induction base as [|b bs IH]; intros [|i is_]; cbn; auto.
  rewrite IH. f_equal. rewrite <- N.lxor_assoc, N.lxor_nilpotent, N.lxor_0_l. reflexivity.
Qed.

Fixpoint wire_size (ins : list (list N)) : nat :=
  match ins with [] => O | i :: r => (2 + length i + wire_size r)%nat end.

Lemma delta_encode_length : forall ins base, length (delta_encode base ins) = wire_size ins.
Proof.
  induction ins as [|i r IH]; intros base; cbn [delta_encode wire_size]; [reflexivity|].
  rewrite !app_length, xor_zip_length, IH. cbn. lia.
Qed.

Lemma len_prefix_value : forall n, N.of_nat n <= 65535 ->
  let l := N.of_nat n mod 65536 in N.to_nat (l mod 256 + 256 * (l / 256)) = n.
Proof.
  intros n Hn l. subst l. rewrite (N.mod_small _ 65536) by lia.
  rewrite N.add_comm, <- N.div_mod by discriminate. apply Nat2N.id.
Qed.

Lemma delta_roundtrip : forall ins base fuel left,
  Forall (fun i => N.of_nat (length i) <= 65535) ins ->
  (wire_size ins <= fuel)%nat ->
  N.of_nat (length ins) <= left ->
  delta_decode fuel left base (delta_encode base ins) = Some ins.
Proof.
  induction ins as [|i r IH]; intros base fuel left Hall Hf Hleft.
  - destruct fuel; reflexivity.
  - inversion Hall as [|? ? Hi Hr]; subst.
    cbn [wire_size] in Hf. destruct fuel as [|k]; [lia|]. cbn [length] in Hleft.
    cbn [delta_encode]. unfold len_prefix. cbn [app delta_decode].
    rewrite (len_prefix_value _ Hi), <- (xor_zip_length base i).
    rewrite firstn_app_exact, skipn_app_exact, xor_zip_invol.
    assert ((length (xor_zip base i ++ delta_encode i r) <? length (xor_zip base i))%nat = false) as ->
      by (apply Nat.ltb_ge; rewrite app_length; lia).
    assert ((left =? 0) = false) as -> by lia.
    rewrite IH; [reflexivity|assumption|lia|lia].
Qed.

Lemma delta_decode_size : forall fuel left base data r,
  delta_decode fuel left base data = Some r -> (length data <= fuel)%nat ->
  wire_size r = length data /\ N.of_nat (length r) <= left.
Proof.
  induction fuel as [|k IH]; intros left base data r H Hf.
  - destruct data; cbn in H; [inversion H; cbn; split; [reflexivity|lia]|discriminate].
  - destruct data as [|lo [|hi rest]]; cbn [delta_decode] in H.
    + inversion H; cbn; split; [reflexivity|lia].
    + discriminate.
    + set (l := N.to_nat (lo + 256 * hi)) in *.
      destruct (length rest <? l)%nat eqn:El; [discriminate|]. apply Nat.ltb_ge in El.
      destruct (left =? 0) eqn:E0; [discriminate|]. apply N.eqb_neq in E0.
      destruct (delta_decode k _ _ (skipn l rest)) as [t|] eqn:Ht; [|discriminate].
      inversion H; subst r. cbn [wire_size length].
      apply IH in Ht; [|rewrite skipn_length; cbn [length] in Hf; lia].
      destruct Ht as [Ht1 Ht2].
      rewrite Ht1, xor_zip_length, firstn_length, skipn_length. lia.
Qed.

Section WithCapBound.
(* discharged for the generated constant in props/C14.v *)
Hypothesis Hcap : MAX_DECODED_LEN < 2^61.

Lemma decode_cases : forall dbg ref data,
  validate MAX_DECODED_LEN data = false /\ decode dbg ref data = Err \/
  exists d, validate MAX_DECODED_LEN data = true /\ rleF dbg data = Ok d /\ rle_decode data = Some d /\
            N.of_nat (length d) <= MAX_DECODED_LEN /\
            decode dbg ref data =
              match delta_decode (length d) MAX_DECODED_INPUTS ref d with Some r => Ok r | None => Err end.
Proof.
  intros dbg ref data. unfold decode.
  destruct (validate MAX_DECODED_LEN data) eqn:Hv; [right|left; auto].
  assert (HU : MAX_DECODED_LEN < U64) by (eapply N.lt_trans; [exact Hcap|reflexivity]).
  destruct (validated_rle_total _ dbg data HU Hv) as (d & Hr & Hi & Hd).
  exists d. rewrite Hr. auto.
Qed.

(* C14, sentence 2: decoding is total in both build profiles, for every byte string *)
Theorem decode_total : forall dbg ref data, decode dbg ref data <> Panic.
Proof.
  intros dbg ref data. destruct (decode_cases dbg ref data) as [[_ ->]|(d & _ & _ & _ & _ & ->)]; [discriminate|].
  destruct (delta_decode _ _ _ _); discriminate.
Qed.

(* ... and what it allocates is bounded: the RLE-expanded buffer and the decoded inputs
   (with their length prefixes) never exceed MAX_DECODED_LEN bytes *)
Theorem decode_bounded : forall dbg ref data outs,
  decode dbg ref data = Ok outs ->
  (exists buf, rleF dbg data = Ok buf /\ N.of_nat (length buf) <= MAX_DECODED_LEN) /\
  N.of_nat (wire_size outs) <= MAX_DECODED_LEN /\
  N.of_nat (length outs) <= MAX_DECODED_INPUTS.
Proof.
  intros dbg ref data outs H.
  destruct (decode_cases dbg ref data) as [[_ E]|(d & _ & Hr & _ & Hd & E)]; rewrite E in H; [discriminate|].
  destruct (delta_decode (length d) MAX_DECODED_INPUTS ref d) as [r|] eqn:Hdd; [|discriminate].
  inversion H; subst r.
  apply delta_decode_size in Hdd; [|lia]. destruct Hdd as [Hd1 Hd2].
  split; [exists d; split; [exact Hr|exact Hd]|split; [lia|exact Hd2]].
Qed.

(* C14, sentence 1: the round trip, for every reference and every sequence of inputs of
   any (varying, possibly zero) lengths up to 65535 whose wire size fits a legitimate packet *)
Theorem codec_roundtrip : forall dbg ref ins,
  Forall (fun i => N.of_nat (length i) <= 65535) ins ->
  N.of_nat (wire_size ins) <= MAX_DECODED_LEN ->
  N.of_nat (length ins) <= MAX_DECODED_INPUTS ->
  decode dbg ref (encode ref ins) = Ok ins.
Proof.
  intros dbg ref ins Hall Hsz Hcnt. unfold encode.
  pose proof (delta_encode_length ins ref) as Hlen. set (buf := delta_encode ref ins) in *.
  pose proof (rle_encode_scans _ Hcap buf ltac:(lia)) as Hs.
  destruct (decode_cases dbg ref (rle_encode buf)) as [[Hv _]|(d & _ & _ & Hd & _ & ->)].
  - unfold validate in Hv. rewrite Hs in Hv. discriminate.
  - rewrite (rle_roundtrip _ Hcap buf) in Hd by lia. inversion Hd; subst d.
    subst buf. rewrite delta_roundtrip; [reflexivity|assumption|lia|exact Hcnt].
Qed.

End WithCapBound.

(* non-vacuity of the round trip; the validated decoder rejects the F1 witnesses instead of panicking *)
Example roundtrip_example :
  decode true [0;0;0;1] (encode [0;0;0;1] [[0;0;1;0]; []; [255;255;255;255;255;7]; [0;0;1;1]])
  = Ok [[0;0;1;0]; []; [255;255;255;255;255;7]; [0;0;1;1]].
Proof. vm_compute. reflexivity. Qed.
Example witnesses_rejected :
  decode true [0;0;0;0] [128] = Err /\
  decode true [] [255;255;255;255;255;255;255;255;255;255;1] = Err /\
  decode true [] [129;128;128;128;4] = Err.
Proof. repeat split; vm_compute; reflexivity. Qed.
