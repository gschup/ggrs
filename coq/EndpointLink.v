(* C05 (link half): a lost acknowledgement cannot wedge the receiver; the handshake makes progress.
   Two endpoints S (sender) and R (receiver) of the model Endpoint.v (src/network/protocol.rs, current code),
   connected by a network that may lose, duplicate, delay and reorder.  Statements are collected in props/C05.v. *)
From Coq Require Import ZArith List Bool Lia.
From GGRS Require Import Base Consts TimeSync Codec CodecProofs Endpoint EndpointSpec EndpointProofs EndpointSafety.
From GGRS Require Import LiaSetup.
Open Scope Z_scope.

Definition epl_no_new_input (q q' : list event) : Prop :=
  exists evs, q' = q ++ evs /\ Forall (fun e => is_input e = false) evs.

Lemma epl_no_new_input_in : forall q q' k v h,
  epl_no_new_input q q' -> In (EvInput k v h) q' -> In (EvInput k v h) q.
Proof.
  intros q q' k v h (evs & -> & F) X. apply in_app_iff in X. destruct X as [X|X]; [exact X|].
  rewrite Forall_forall in F. specialize (F _ X). discriminate.
Qed.

Lemma epl_resumed_no_input : forall s, Forall (fun e => is_input e = false) (resumed_pre s).
Proof. intro s. unfold resumed_pre. destruct (resumed_cond s); repeat constructor. Qed.

Lemma epl_accept_lrf : forall dbg start ins i s s',
  accept_inputs dbg start i ins s = Ok (true, s') ->
  start + i + Z.of_nat (length ins) - 1 <= TS_I32_MAX -> TS_I32_MIN <= start + i -> ins <> [] ->
  last_recv_frame s' = Z.max (last_recv_frame s) (start + i + Z.of_nat (length ins) - 1).
Proof.
  induction ins as [|inp rest IH]; intros i s s' H Hov Hlo Hne; [congruence|].
  cbn [accept_inputs] in H. cbn [length] in Hov.
  rewrite (eps_i32_exact dbg (start + i)) in H by lia.
  assert (Hrest : forall t, accept_inputs dbg start (i + 1) rest t = Ok (true, s') ->
            last_recv_frame t = Z.max (last_recv_frame s) (start + i) ->
            last_recv_frame s' = Z.max (last_recv_frame s) (start + i + Z.of_nat (length (inp :: rest)) - 1)).
  { intros t Ht Lt. destruct rest as [|x rest'].
    - cbn [accept_inputs] in Ht. inversion Ht; subst. cbn [length]. rewrite Lt. f_equal. lia.
    - rewrite (IH _ _ _ Ht) by (cbn [length] in *; try lia; discriminate). rewrite Lt. cbn [length]. lia. }
  destruct (start + i <=? last_recv_frame s) eqn:Ele.
  - apply (Hrest s H). lia.
  - apply Z.leb_gt in Ele.
    destruct (to_player_inputs (length (u_handles s)) inp) as [vals|]; [|discriminate].
    destruct (input_events (start + i) vals (u_handles s)) as [evs| |]; try discriminate.
    eapply Hrest; [exact H|]. rewrite eps_lrf_eq. cbn [u_recv_inputs set_event_queue set_recv_inputs].
    rewrite eps_lrf_ainsert_new; [lia|]. rewrite <- eps_lrf_eq. exact Ele.
Qed.

Lemma epl_body_reack : forall dbg now sf bytes s2,
  alookup (eps_decode_frame s2 sf) (u_recv_inputs s2) = None -> sf <= last_recv_frame s2 ->
  eps_body dbg now sf bytes s2 = Ok (send_input_ack now s2).
Proof.
  intros dbg now sf bytes s2 El Hle. unfold eps_body. cbv zeta. fold (eps_decode_frame s2 sf). rewrite El.
  assert ((sf <=? last_recv_frame s2) = true) as -> by lia. reflexivity.
Qed.

Lemma epl_complete_exit : forall dbg now sf ins s3 s4 w lo ref,
  eps_ri_ok s3 -> eps_window_ok s3 -> 0 <= sf ->
  alookup (eps_decode_frame s3 sf) (u_recv_inputs s3) = Some ref ->
  accept_inputs dbg sf 0 ins s3 = Ok (true, s4) ->
  ts_i32_arith dbg (2 * ts_wrap_i32 (u_max_prediction s4)) = Ok w -> ts_i32_arith dbg (last_recv_frame s4 - w) = Ok lo ->
  let s' := set_recv_inputs (aretain_ge (Z.min lo (sf - 1)) (u_recv_inputs s4)) (send_input_ack now s4) in
  last_recv_frame s' = last_recv_frame s4 /\
  (forall k v, In (k, v) (u_recv_inputs s') -> In (k, v) (u_recv_inputs s4)) /\
  (forall k v, In (k, v) (u_recv_inputs s3) -> Z.min (last_recv_frame s4 - 2 * u_max_prediction s3) (sf - 1) <= k ->
               alookup k (u_recv_inputs s') = Some v).
Proof.
  intros dbg now sf ins s3 s4 w lo ref Hok Hw Hs El Ea Ew Elo.
  destruct (eps_complete_exit_ri dbg now sf ins s3 s4 w lo ref Hok Hw Hs El Ea Ew Elo) as (_ & B & _ & _ & _ & Sub & K).
  auto.
Qed.

Lemma epl_input_exit_static : forall dbg now st dr sf af bytes s s', eps_input_exit dbg now st dr sf af bytes s s' ->
  u_state s' = u_state s /\ u_num_players s' = u_num_players s /\ u_handles s' = u_handles s /\
  u_max_prediction s' = u_max_prediction s /\ u_magic s' = u_magic s /\ u_remote_magic s' = u_remote_magic s.
Proof.
  intros dbg now st dr sf af bytes s s' X.
  destruct (eps_input_exit_effect _ _ _ _ _ _ _ _ _ X) as (Est & Erm & _ & _ & D & _). eps_core_inj D. auto 10.
Qed.

Lemma epl_input_exit_sender : forall dbg now st dr sf af bytes s s', eps_input_exit dbg now st dr sf af bytes s s' ->
  ((u_pending_output s', u_last_acked s') = (u_pending_output s, u_last_acked s) \/
   (u_pending_output s', u_last_acked s') = pop_pending af (u_pending_output s) (u_last_acked s)) /\
  (u_send_queue s' = u_send_queue s \/ exists f, u_send_queue s' = u_send_queue s ++ [mkMsg (u_magic s) (InputAck f)]).
Proof.
  intros dbg now st dr sf af bytes s s' X.
  destruct (eps_input_exit_effect _ _ _ _ _ _ _ _ _ X) as (_ & _ & _ & _ & _ & Hpop & Hsq). auto.
Qed.

Lemma epl_body_complete : forall dbg now sf bytes s2 ref ins s4,
  eps_ri_ok s2 -> eps_window_ok s2 -> 0 <= sf ->
  alookup (eps_decode_frame s2 sf) (u_recv_inputs s2) = Some ref -> Codec.decode dbg ref bytes = Ok ins ->
  accept_inputs dbg sf 0 ins (set_last_input_recv now s2) = Ok (true, s4) ->
  exists s', eps_body dbg now sf bytes s2 = Ok s' /\ last_recv_frame s' = last_recv_frame s4 /\
    u_send_queue s' = u_send_queue s2 ++ [mkMsg (u_magic s2) (InputAck (last_recv_frame s4))].
Proof.
  intros dbg now sf bytes s2 ref ins s4 Hok Hw Hs El Ed Ea.
  destruct (accept_inputs_shape _ _ _ _ _ _ _ Ea) as (ri & evs & E4 & _).
  assert (Emp : u_max_prediction s4 = u_max_prediction s2) by (rewrite E4; reflexivity).
  pose proof (eps_accept_ri_ok _ _ _ _ _ _ Ea Hs Hok) as Hok4. destruct (eps_ri_ok_lrf _ Hok4) as (L4 & _).
  pose proof Hw as Hw2. unfold eps_window_ok, EPS_MAX_WINDOW in Hw2.
  assert (Ew : ts_i32_arith dbg (2 * ts_wrap_i32 (u_max_prediction s4)) = Ok (2 * u_max_prediction s2)).
  { rewrite Emp, eps_wrap_small by (unfold TS_I32_MIN, TS_I32_MAX; lia).
    apply eps_i32_exact. unfold TS_I32_MIN, TS_I32_MAX. lia. }
  assert (Elo : ts_i32_arith dbg (last_recv_frame s4 - 2 * u_max_prediction s2) =
                Ok (last_recv_frame s4 - 2 * u_max_prediction s2))
    by (apply eps_i32_exact; unfold TS_I32_MIN, TS_I32_MAX in *; lia).
  destruct (epl_complete_exit dbg now sf ins (set_last_input_recv now s2) s4 _ _ ref Hok Hw Hs El Ea Ew Elo) as (B & _).
  unfold eps_body. cbv zeta. fold (eps_decode_frame s2 sf). rewrite El, Ed, Ea.
  change (last_recv_frame (send_input_ack now s4)) with (last_recv_frame s4).
  change (u_max_prediction (send_input_ack now s4)) with (u_max_prediction s4).
  rewrite Ew, Elo. eexists. split; [reflexivity|]. split; [exact B|].
  rewrite E4. reflexivity.
Qed.

Lemma epl_player_chunks : forall n k bs, (0 < n)%nat -> length bs = (k * n)%nat ->
  to_player_inputs n bs = player_values n k bs.
Proof.
  intros n k bs Hn Hl. unfold to_player_inputs. destruct n as [|n']; [lia|]. rewrite Hl, Nat2Z.inj_mul.
  rewrite Z_mod_mult, Z.div_mul, Nat2Z.id by lia. reflexivity.
Qed.

Lemma epl_player_values_total : forall n k bs, (4 <= k)%nat -> length bs = (k * n)%nat -> player_values n k bs <> None.
Proof.
  induction n as [|n IH]; intros k bs Hk Hl; cbn [player_values]; [discriminate|].
  assert (Hf : (4 <= length (firstn k bs))%nat) by (rewrite firstn_length; lia).
  destruct (firstn k bs) as [|b0 [|b1 [|b2 [|b3 rest]]]]; cbn [length] in Hf; try lia. cbn [le_value].
  specialize (IH k (skipn k bs) Hk). rewrite skipn_length in IH.
  destruct (player_values n k (skipn k bs)); [discriminate|]. apply IH. lia.
Qed.

Lemma epl_accept_sized : forall dbg start ins i s b s' k,
  accept_inputs dbg start i ins s = Ok (b, s') -> (4 <= k)%nat -> (0 < length (u_handles s))%nat ->
  Forall (fun inp => length inp = (k * length (u_handles s))%nat) ins -> b = true.
Proof.
  intros dbg start ins i s b s' k H Hk Hn F. destruct b; [reflexivity|]. exfalso.
  destruct (eps_accept_false _ _ _ _ _ _ H) as (pre & bad & post & fr & E1 & E2 & _ & _ & E5).
  destruct (accept_inputs_shape _ _ _ _ _ _ _ E2) as (ri & evs & E4 & _). rewrite E4 in E5.
  cbn [u_handles set_event_queue set_recv_inputs] in E5. rewrite Forall_forall in F.
  assert (Hb : length bad = (k * length (u_handles s))%nat)
    by (apply F; rewrite E1; apply in_app_iff; right; left; reflexivity).
  rewrite (epl_player_chunks _ k _ Hn Hb) in E5. exact (epl_player_values_total _ k _ Hk Hb E5).
Qed.

Lemma epl_header_queues : forall now st dr af s s2, eps_header st dr af (eps_touch now s) = Ok s2 ->
  u_send_queue s2 = u_send_queue s /\ u_magic s2 = u_magic s /\
  epl_no_new_input (u_event_queue s) (u_event_queue s2).
Proof.
  intros now st dr af s s2 Eh. apply eps_header_nf in Eh. rewrite eps_touch_nf in Eh. cbv zeta in Eh. fs in Eh.
  destruct Eh as (ps & _ & ->). fs. split; [reflexivity|]. split; [reflexivity|].
  eexists. split; [symmetry; apply app_assoc|].
  apply Forall_app. split; [apply epl_resumed_no_input|]. destruct (dr && _ && _); repeat constructor.
Qed.

Lemma epl_header_pops : forall now st dr af s s2, eps_header st dr af (eps_touch now s) = Ok s2 ->
  (u_pending_output s2, u_last_acked s2) = pop_pending af (u_pending_output s) (u_last_acked s).
Proof.
  intros now st dr af s s2 Eh. apply eps_header_nf in Eh. rewrite eps_touch_nf in Eh. cbv zeta in Eh. fs in Eh.
  destruct Eh as (ps & _ & ->). fs. symmetry. apply surjective_pairing.
Qed.

(* the repair b2421d6, first half: an Input packet whose base frame (start_frame - 1) the receiver no longer
   keeps and whose start_frame is not beyond last_recv_frame is answered with InputAck(last_recv_frame) *)
Lemma epl_reack : forall dbg now nonce m st dr sf af bytes R,
  m_body m = Input st dr sf af bytes -> passes_filters R m = true -> eps_wf R ->
  dr = true \/ Z.of_nat (length st) = u_num_players R -> 0 <= sf ->
  alookup (sf - 1) (u_recv_inputs R) = None -> sf <= last_recv_frame R ->
  exists R', handle_message dbg now nonce m R = Ok R' /\
    u_send_queue R' = u_send_queue R ++ [mkMsg (u_magic R) (InputAck (last_recv_frame R))] /\
    u_recv_inputs R' = u_recv_inputs R /\ u_state R' = u_state R.
Proof.
  intros dbg now nonce m st dr sf af bytes R Hb Hp Hw Hd Hs Hl Hle.
  destruct (eps_handle_input_body dbg now nonce m st dr sf af bytes R Hb Hp Hw Hd Hs) as (s2 & Eh & ->).
  destruct (eps_header_recv _ _ _ _ _ _ Eh) as (Eri & _). destruct (eps_header_ri _ _ _ _ _ _ Eh) as (Edf & _).
  destruct (epl_header_queues _ _ _ _ _ _ Eh) as (Esq & Emg & _).
  pose proof (eps_last_recv_frame_ext _ _ Eri) as Elrf.
  rewrite epl_body_reack.
  - eexists. split; [reflexivity|]. fs. rewrite Esq, Emg, Elrf. split; [reflexivity|]. split; [exact Eri|].
    apply eps_header_nf in Eh. cbv zeta in Eh. destruct Eh as (ps & _ & ->). rewrite eps_touch_nf. reflexivity.
  - rewrite Edf, Eri. unfold eps_decode_frame. assert ((last_recv_frame R =? NULL) = false) as -> by (unfold NULL; lia).
    exact Hl.
  - rewrite Elrf. exact Hle.
Qed.

Lemma epl_input_exit_cases : forall dbg now st dr sf af bytes s s',
  eps_input_exit dbg now st dr sf af bytes s s' ->
  (u_recv_inputs s' = u_recv_inputs s /\
   (u_send_queue s' = u_send_queue s \/
    u_send_queue s' = u_send_queue s ++ [mkMsg (u_magic s) (InputAck (last_recv_frame s))]) /\
   epl_no_new_input (u_event_queue s) (u_event_queue s')) \/
  exists s2 ref ins b s4, eps_header st dr af (eps_touch now s) = Ok s2 /\ 0 <= sf /\
    alookup (eps_decode_frame s2 sf) (u_recv_inputs s2) = Some ref /\ Codec.decode dbg ref bytes = Ok ins /\
    accept_inputs dbg sf 0 ins (set_last_input_recv now s2) = Ok (b, s4) /\
    if b then exists w lo, ts_i32_arith dbg (2 * ts_wrap_i32 (u_max_prediction s4)) = Ok w /\
                ts_i32_arith dbg (last_recv_frame s4 - w) = Ok lo /\
                s' = set_recv_inputs (aretain_ge (Z.min lo (sf - 1)) (u_recv_inputs s4)) (send_input_ack now s4)
    else s' = s4.
Proof.
  intros dbg now st dr sf af bytes s s' X.
  assert (Hhdr : forall s2, eps_header st dr af (eps_touch now s) = Ok s2 ->
            u_recv_inputs s2 = u_recv_inputs s /\ u_send_queue s2 = u_send_queue s /\ u_magic s2 = u_magic s /\
            epl_no_new_input (u_event_queue s) (u_event_queue s2)).
  { intros s2 Eh. destruct (eps_header_recv _ _ _ _ _ _ Eh) as (E1 & _).
    destruct (epl_header_queues _ _ _ _ _ _ Eh) as (E2 & E3 & E4). auto. }
  destruct X as [ | |s2 Eh|s2 Eh|s2 ref Eh|s2 ref ins s4 Eh Hs El Ed Ea|s2 ref ins s4 w lo Eh Hs El Ed Ea Ew Elo].
  - left. split; [reflexivity|]. split; [left; reflexivity|]. exists []. split; [symmetry; apply app_nil_r|constructor].
  - left. rewrite eps_touch_nf. split; [reflexivity|]. split; [left; reflexivity|].
    exists (resumed_pre s). split; [reflexivity|apply epl_resumed_no_input].
  - left. destruct (Hhdr _ Eh) as (E1 & E2 & E3 & E4). auto.
  - left. destruct (Hhdr _ Eh) as (E1 & E2 & E3 & E4). split; [exact E1|]. split; [|exact E4]. right.
    fs. rewrite E2, E3, (eps_last_recv_frame_ext _ _ E1). reflexivity.
  - left. destruct (Hhdr _ Eh) as (E1 & E2 & E3 & E4). auto.
  - right. exists s2, ref, ins, false, s4. auto 10.
  - right. exists s2, ref, ins, true, s4. repeat (split; [assumption|]). exists w, lo. auto.
Qed.

(* second half, the retain rule: whatever a packet with start_frame [sf] makes the receiver do, it keeps every entry
   from min(last_recv_frame - 2 * max_prediction, sf - 1) on - in particular the entry [sf - 1], the base the sender
   encoded the packet against.  So a sender that keeps encoding against frame A is served by a receiver that once
   decoded a packet based on A, until the sender's base moves. *)
Lemma epl_input_keeps : forall dbg now nonce m st dr sf af bytes R R' k b,
  m_body m = Input st dr sf af bytes -> handle_message dbg now nonce m R = Ok R' ->
  eps_ri_ok R -> eps_window_ok R ->
  alookup k (u_recv_inputs R) = Some b -> Z.min (last_recv_frame R' - 2 * u_max_prediction R) (sf - 1) <= k ->
  alookup k (u_recv_inputs R') = Some b.
Proof.
  intros dbg now nonce m st dr sf af bytes R R' k b Hb H Hok Hw Hl Hk.
  destruct (epl_input_exit_cases _ _ _ _ _ _ _ _ _ (eps_input_exits _ _ _ _ _ _ _ _ _ _ _ Hb H))
    as [(E & _)|(s2 & ref & ins & acc & s4 & Eh & Hs & El & Ed & Ea & Hexit)]; [rewrite E; exact Hl|].
  destruct (eps_header_recv _ _ _ _ _ _ Eh) as (E1 & _ & E3). destruct (eps_header_ri _ _ _ _ _ _ Eh) as (_ & Hok2 & Hw2).
  assert (Hin : In (k, b) (u_recv_inputs (set_last_input_recv now s2)))
    by (cbn [u_recv_inputs set_last_input_recv]; rewrite E1; apply eps_alookup_in; exact Hl).
  destruct acc.
  - destruct Hexit as (w & lo & Ew & Elo & ->).
    destruct (epl_complete_exit dbg now sf ins (set_last_input_recv now s2) s4 w lo ref (Hok2 Hok) (Hw2 Hw) Hs El Ea Ew Elo)
      as (B & _ & K).
    apply K; [exact Hin|]. cbv zeta in B. rewrite B in Hk. cbn [u_max_prediction set_last_input_recv].
    rewrite E3. exact Hk.
  - subst R'. apply eps_alookup_nodup; [apply (eps_accept_ri_ok _ _ _ _ _ _ Ea Hs (Hok2 Hok))|].
    exact (eps_accept_keeps _ _ _ _ _ _ _ Ea _ _ Hin).
Qed.

Fixpoint epl_consec (f : Z) (po : list ibytes) : Prop :=
  match po with [] => True | x :: r => fst x = f /\ epl_consec (f + 1) r end.

Lemma epl_consec_app : forall a b f, epl_consec f (a ++ b) <-> epl_consec f a /\ epl_consec (f + Z.of_nat (length a)) b.
Proof.
  induction a as [|x a IH]; intros b f; cbn [app epl_consec length].
  - replace (f + Z.of_nat 0) with f by lia. tauto.
  - rewrite IH. replace (f + 1 + Z.of_nat (length a)) with (f + Z.of_nat (S (length a))) by lia. tauto.
Qed.

Lemma epl_consec_in : forall po f x, epl_consec f po -> In x po -> f <= fst x < f + Z.of_nat (length po).
Proof.
  induction po as [|y r IH]; intros f x H Hi; [destruct Hi|]. cbn [epl_consec length] in *. destruct H as (H1 & H2).
  destruct Hi as [->|Hi]; [lia|]. specialize (IH _ _ H2 Hi). lia.
Qed.

Lemma epl_consec_unique : forall po f k b b', epl_consec f po -> In (k, b) po -> In (k, b') po -> b = b'.
Proof.
  induction po as [|y r IH]; intros f k b b' H H1 H2; [destruct H1|]. cbn [epl_consec] in H. destruct H as (Hy & Hr).
  destruct H1 as [->|H1], H2 as [E|H2].
  - inversion E. reflexivity.
  - pose proof (epl_consec_in _ _ _ Hr H2). cbn [fst] in *. lia.
  - subst y. pose proof (epl_consec_in _ _ _ Hr H1). cbn [fst] in *. lia.
  - eapply IH; eauto.
Qed.

Lemma epl_consec_nth : forall frames f j x, epl_consec f frames -> nth_error frames j = Some x ->
  fst x = f + Z.of_nat j.
Proof.
  induction frames as [|y r IH]; intros f j x H Hn; [destruct j; discriminate|]. cbn [epl_consec] in H.
  destruct H as (H1 & H2). destruct j as [|j]; cbn [nth_error] in Hn.
  - inversion Hn; subst. lia.
  - rewrite (IH _ _ _ H2 Hn). lia.
Qed.

Lemma epl_pop_stops : forall a po la, match po with [] => True | x :: _ => a < fst x end -> pop_pending a po la = (po, la).
Proof. intros a [|x r] la H; cbn [pop_pending]; [reflexivity|]. assert ((fst x <=? a) = false) as -> by lia. reflexivity. Qed.

Lemma epl_pop_consec : forall f pre a b post la,
  epl_consec f (pre ++ (a, b) :: post) -> pop_pending a (pre ++ (a, b) :: post) la = (post, (a, b)).
Proof.
  intros f pre. revert f. induction pre as [|x pre IH]; intros f a b post la H; cbn [app pop_pending epl_consec] in *.
  - cbn [fst] in *. rewrite Z.leb_refl. apply epl_pop_stops. destruct H as (Ha & H).
    destruct post as [|y r]; [exact I|]. cbn [epl_consec] in H. lia.
  - destruct H as (Hx & H). pose proof (epl_consec_in _ _ _ H (in_elt (a, b) pre post)) as X. cbn [fst] in X.
    assert ((fst x <=? a) = true) as -> by lia. exact (IH _ _ _ _ _ H).
Qed.

(* the Input packet send_pending_output would queue now *)
Definition epl_packet (cs : list status) (s : ep) : option message :=
  match u_pending_output s with
  | [] => None
  | (f, _) :: _ =>
    Some (mkMsg (u_magic s) (Input cs (pstate_eqb (u_state s) PDisconnected) f (last_recv_frame s)
                                   (Codec.encode (snd (u_last_acked s)) (map snd (u_pending_output s)))))
  end.

Lemma epl_send_pending_output_packet : forall now cs s t,
  send_pending_output now cs s = Ok t ->
  t = match epl_packet cs s with
      | Some m => set_send_queue (u_send_queue s ++ [m]) (set_last_send_time now s)
      | None => s
      end.
Proof.
  intros now cs s t H. apply send_pending_output_shape in H. unfold epl_packet.
  destruct H as [(E & ->)|(f & b & r & E & ->)]; rewrite E; [reflexivity|]. rewrite <- E. reflexivity.
Qed.

Lemma epl_handle_ack : forall dbg now nonce X r mg,
  passes_filters X (mkMsg mg (InputAck r)) = true ->
  exists X1, handle_message dbg now nonce (mkMsg mg (InputAck r)) X = Ok X1 /\
    (u_pending_output X1, u_last_acked X1) = pop_pending r (u_pending_output X) (u_last_acked X) /\
    u_state X1 = u_state X /\ u_magic X1 = u_magic X /\ u_remote_magic X1 = u_remote_magic X /\
    u_recv_inputs X1 = u_recv_inputs X.
Proof.
  intros dbg now nonce X r mg Hp. rewrite eps_handle_unfold, Hp. cbn [negb m_body]. cbv zeta.
  eexists. split; [reflexivity|]. rewrite pop_pending_output_nf, eps_touch_nf. fs.
  split; [symmetry; apply surjective_pairing|]. auto.
Qed.

Lemma epl_body_keeps_pending : forall dbg now sf bytes s2 s', eps_body dbg now sf bytes s2 = Ok s' ->
  u_pending_output s' = u_pending_output s2 /\ u_last_acked s' = u_last_acked s2.
Proof.
  intros dbg now sf bytes s2 s' H. unfold eps_body in H. cbv zeta in H.
  destruct (alookup _ (u_recv_inputs s2)) as [ref|].
  - destruct (Codec.decode dbg ref bytes) as [ins| |]; try discriminate.
    + destruct (accept_inputs dbg sf 0 ins (set_last_input_recv now s2)) as [[[|] s4]| |] eqn:Ea; try discriminate;
        destruct (accept_inputs_shape _ _ _ _ _ _ _ Ea) as (ri & evs & -> & _).
      * destruct (ts_i32_arith dbg _) as [w| |]; try discriminate.
        destruct (ts_i32_arith dbg _) as [lo| |]; try discriminate. inversion H; subst. split; reflexivity.
      * inversion H; subst. split; reflexivity.
    + inversion H; subst. split; reflexivity.
  - destruct (sf <=? last_recv_frame s2); inversion H; subst; split; reflexivity.
Qed.

Definition epl_plain (b : body) : bool :=
  match b with Input _ _ _ _ _ | InputAck _ => false | _ => true end.

Definition epl_app (P : message -> Prop) (s s' : ep) : Prop :=
  exists q, u_send_queue s' = u_send_queue s ++ q /\ Forall P q.

Lemma epl_app_same : forall P s s', u_send_queue s' = u_send_queue s -> epl_app P s s'.
Proof. intros P s s' E. exists []. rewrite app_nil_r. split; [exact E|constructor]. Qed.

Lemma epl_app_trans : forall P a b c, epl_app P a b -> epl_app P b c -> epl_app P a c.
Proof.
  intros P a b c (q1 & E1 & F1) (q2 & E2 & F2). exists (q1 ++ q2). rewrite E2, E1, app_assoc.
  split; [reflexivity|]. apply Forall_app. auto.
Qed.

Lemma epl_app_one : forall (P : message -> Prop) s s' m, u_send_queue s' = u_send_queue s ++ [m] -> P m -> epl_app P s s'.
Proof. intros P s s' m E H. exists [m]. split; [exact E|]. constructor; [exact H|constructor]. Qed.

Lemma epl_app_impl : forall (P Q : message -> Prop) s s', (forall m, P m -> Q m) -> epl_app P s s' -> epl_app Q s s'.
Proof. intros P Q s s' H (q & E & F). exists q. split; [exact E|]. eapply Forall_impl; eauto. Qed.

Lemma epl_app_forall : forall (P : message -> Prop) s s',
  Forall P (u_send_queue s) -> epl_app P s s' -> Forall P (u_send_queue s').
Proof. intros P s s' F (q & E & Fq). rewrite E. apply Forall_app. auto. Qed.

Lemma epl_poll_running_sends : forall now cs s s', poll_running now cs s = Ok s' ->
  exists q, Forall (fun m => epl_plain (m_body m) = true) q /\
    u_send_queue s' = (u_send_queue s ++
      (if u_last_input_recv s + RUNNING_RETRY_INTERVAL <? now
       then match epl_packet cs s with Some m => [m] | None => [] end else [])) ++ q.
Proof.
  intros now cs s s' H. unfold poll_running, poll_running_gen in H. cbn [fix_quiet_dead current_code] in H.
  cbv zeta in H.
  match type of H with match ?X with _ => _ end = _ => destruct X as [s1| |] eqn:E1; try discriminate end.
  assert (A1 : u_send_queue s1 = u_send_queue s ++
            (if u_last_input_recv s + RUNNING_RETRY_INTERVAL <? now
             then match epl_packet cs s with Some m => [m] | None => [] end else [])).
  { destruct (u_last_input_recv s + RUNNING_RETRY_INTERVAL <? now).
    - destruct (send_pending_output now cs s) as [t| |] eqn:Et; try discriminate. inversion E1; subst s1.
      rewrite (epl_send_pending_output_packet _ _ _ _ Et).
      destruct (epl_packet cs s); [reflexivity|symmetry; apply app_nil_r].
    - inversion E1; subst. symmetry. apply app_nil_r. }
  rewrite <- A1. clear E1 A1.
  match type of H with match ?X with _ => _ end = _ => destruct X as [s2| |] eqn:E2; try discriminate end.
  assert (A2 : epl_app (fun m => epl_plain (m_body m) = true) s1 s2).
  { destruct (u_last_quality_report s1 + QUALITY_REPORT_INTERVAL <? now).
    - apply send_quality_report_shape in E2. destruct E2 as (adv & ->). eapply epl_app_one; reflexivity.
    - inversion E2; subst. apply epl_app_same. reflexivity. }
  set (s3 := if u_last_send_time s2 + KEEP_ALIVE_INTERVAL <? now then send_keep_alive now s2 else s2) in *.
  assert (A3 : epl_app (fun m => epl_plain (m_body m) = true) s2 s3).
  { subst s3. destruct (u_last_send_time s2 + KEEP_ALIVE_INTERVAL <? now).
    - eapply epl_app_one; reflexivity.
    - apply epl_app_same. reflexivity. }
  clearbody s3. inversion H; subst s'.
  destruct (epl_app_trans _ _ _ _ A2 A3) as (q & E & F). exists q. split; [exact F|]. rewrite <- E.
  destruct (negb (u_notify_sent s3) && negb (u_event_sent s3) && (u_last_recv_time s3 + u_notify_start s3 <? now));
    destruct (negb (u_event_sent _) && _); reflexivity.
Qed.

Lemma epl_poll_messages : forall now cs s t, poll_running now cs s = Ok t ->
  epl_app (fun m => epl_packet cs s = Some m \/ epl_plain (m_body m) = true) s t.
Proof.
  intros now cs s t H. destruct (epl_poll_running_sends _ _ _ _ H) as (q & F & E).
  eexists. split; [rewrite E, <- app_assoc; reflexivity|].
  apply Forall_app. split; [|eapply Forall_impl; [|exact F]; intros m Hm; right; exact Hm].
  destruct (_ <? now); [|constructor]. destruct (epl_packet cs s); repeat constructor.
Qed.

Lemma epl_poll_unfold : forall now nonce cs s, poll now nonce cs s =
  match (match u_state s with
         | PSynchronizing =>
           Ok (if u_last_sync_request_time s + SYNC_RETRY_INTERVAL <? now then send_sync_request now nonce s else s)
         | PRunning => poll_running now cs s
         | PDisconnected => Ok (if u_shutdown_timeout s <? now then set_state PShutdown s else s)
         | PInitializing | PShutdown => Ok s
         end) with
  | Ok s1 => Ok (u_event_queue s1, set_event_queue [] s1)
  | Err => Err
  | Panic => Panic
  end.
Proof. reflexivity. Qed.

Lemma epl_poll_at_running : forall now nonce cs s out s',
  poll now nonce cs s = Ok (out, s') -> u_state s = PRunning ->
  exists t bs i r, poll_running now cs s = Ok t /\ out = u_event_queue t /\ s' = set_event_queue [] t /\
    t = set_event_sent (u_event_sent s || timeout_now now s)
          (set_notify_sent (u_notify_sent s || interrupt_now now s)
             (set_event_queue (u_event_queue s ++ poll_pushed now s) (sent now bs i r s))).
Proof.
  intros now nonce cs s out s' H Hr. rewrite epl_poll_unfold, Hr in H.
  destruct (poll_running now cs s) as [t| |] eqn:Et; try discriminate. injection H as <- <-.
  destruct (poll_running_inv _ _ _ _ Et) as (bs & i & r & _ & E). exists t, bs, i, r. auto.
Qed.

Definition epl_quiet (s s' : ep) : Prop :=
  epl_app (fun m => epl_plain (m_body m) = true) s s' /\ epl_no_new_input (u_event_queue s) (u_event_queue s').

Lemma epl_quiet_after_touch : forall now s s' q evs,
  u_send_queue s' = u_send_queue (eps_touch now s) ++ q -> u_event_queue s' = u_event_queue (eps_touch now s) ++ evs ->
  Forall (fun m => epl_plain (m_body m) = true) q -> Forall (fun e => is_input e = false) evs -> epl_quiet s s'.
Proof.
  intros now s s' q evs Eq Ee Fq Fe. rewrite eps_touch_nf in Eq, Ee.
  split; [exists q; auto|]. exists (resumed_pre s ++ evs). split; [rewrite Ee; symmetry; apply app_assoc|].
  apply Forall_app. split; [apply epl_resumed_no_input|exact Fe].
Qed.

Lemma epl_other_queues : forall dbg now nonce m s s',
  (forall st dr sf af bytes, m_body m <> Input st dr sf af bytes) ->
  handle_message dbg now nonce m s = Ok s' -> epl_quiet s s'.
Proof.
  intros dbg now nonce m s s' Hni H. rewrite eps_handle_unfold in H.
  destruct (passes_filters s m); cbn [negb] in H.
  2:{ inversion H; subst. split; [apply epl_app_same; reflexivity|]. exists []. split; [symmetry; apply app_nil_r|constructor]. }
  cbv zeta in H. pose proof (epl_quiet_after_touch now s) as Hadd. set (t := eps_touch now s) in *.
  assert (Hsame : forall t', u_send_queue t' = u_send_queue t -> u_event_queue t' = u_event_queue t -> epl_quiet s t')
    by (intros t' E1 E2; apply (Hadd t' [] []); rewrite ?app_nil_r; auto).
  destruct (m_body m) as [n|n|st dr sf af bytes|f|adv ping|pong|c f|] eqn:Eb.
  - inversion H; subst s'. eapply (Hadd _ [_] []); try (symmetry; apply app_nil_r); repeat constructor.
  - apply on_sync_reply_inv in H.
    destruct (pstate_eqb (u_state t) PSynchronizing && zmem n (u_sync_requests t)); [|subst s'; apply Hsame; reflexivity].
    cbv zeta in H. destruct (0 <? _); subst s'.
    + eapply (Hadd _ [_] [_]); repeat constructor.
    + apply (Hadd _ [] [EvSynchronized]); try (symmetry; apply app_nil_r); repeat constructor.
  - exfalso. eapply Hni. reflexivity.
  - inversion H; subst s'. rewrite pop_pending_output_nf. apply Hsame; reflexivity.
  - inversion H; subst s'. eapply (Hadd _ [_] []); try (symmetry; apply app_nil_r); repeat constructor.
  - inversion H; subst s'. apply Hsame; reflexivity.
  - destruct (on_checksum_report_shape _ _ _ _ _ H) as (pcs & ->). apply Hsame; reflexivity.
  - inversion H; subst s'. apply Hsame; reflexivity.
Qed.

Lemma epl_other_keeps : forall dbg now nonce m s s',
  (forall st dr sf af bytes, m_body m <> Input st dr sf af bytes) ->
  handle_message dbg now nonce m s = Ok s' ->
  u_recv_inputs s' = u_recv_inputs s /\ u_handles s' = u_handles s /\ u_max_prediction s' = u_max_prediction s /\
  (u_state s' = u_state s \/ (u_state s = PSynchronizing /\ u_state s' = PRunning)) /\
  ((u_pending_output s', u_last_acked s') = (u_pending_output s, u_last_acked s) \/
   exists r, m_body m = InputAck r /\
     (u_pending_output s', u_last_acked s') = pop_pending r (u_pending_output s) (u_last_acked s)).
Proof.
  intros dbg now nonce m s s' Hn H.
  destruct (eps_handle_other_effect _ _ _ _ _ _ Hn H) as (_ & _ & C & p & pcs & D & Hp & _). eps_core_inj D.
  rewrite C6, C7, <- surjective_pairing. repeat (split; [assumption|]). exact Hp.
Qed.

Definition epl_zeros (nh : nat) : list N := repeat 0%N (4 * nh).

Section Link.
Variable dbg : bool.
Variable nh : nat.    (* inputs per frame of the stream S -> R: |handles R| = local players of S *)
Variable f0 : Z.      (* first frame of the stream *)

(* [sent]: everything S was asked to send, in order *)
Definition epl_sent_ok (sent : list ibytes) : Prop :=
  epl_consec f0 sent /\ Forall (fun x => length (snd x) = (4 * nh)%nat) sent /\
  f0 + Z.of_nat (length sent) - 1 <= TS_I32_MAX.

Definition epl_sender_ok (S : ep) (sent : list ibytes) : Prop :=
  u_state S = PRunning /\
  (length (u_pending_output S) <= N.to_nat PENDING_OUTPUT_SIZE + 1)%nat /\
  exists acked, sent = acked ++ u_pending_output S /\
    ((acked = [] /\ u_last_acked S = (NULL, epl_zeros nh)) \/ (exists pre, acked = pre ++ [u_last_acked S])).

Definition epl_receiver_ok (R : ep) (sent : list ibytes) : Prop :=
  u_state R = PRunning /\ eps_inv R /\ eps_window_ok R /\ length (u_handles R) = nh /\
  (forall k b, In (k, b) (u_recv_inputs R) -> (k = NULL /\ b = epl_zeros nh) \/ In (k, b) sent).

Definition epl_packet_ok (R : ep) (sent : list ibytes) (m : message) : Prop :=
  match m_body m with
  | Input st dr start ack bytes =>
    exists a frames c base, sent = a ++ frames ++ c /\ frames <> [] /\
      (length frames <= N.to_nat PENDING_OUTPUT_SIZE + 1)%nat /\
      start = f0 + Z.of_nat (length a) /\ bytes = Codec.encode base (map snd frames) /\
      ((a = [] /\ base = epl_zeros nh) \/
       (exists pre, a = pre ++ [(start - 1, base)]) /\ start - 1 <= last_recv_frame R)
  | _ => True
  end.

Definition epl_packet_is (R : ep) (sent : list ibytes) (start : Z) (bytes : list N)
                         (a frames c : list ibytes) (base : list N) : Prop :=
  sent = a ++ frames ++ c /\ frames <> [] /\
  (length frames <= N.to_nat PENDING_OUTPUT_SIZE + 1)%nat /\
  start = f0 + Z.of_nat (length a) /\ bytes = Codec.encode base (map snd frames) /\
  ((a = [] /\ base = epl_zeros nh) \/
   (exists pre, a = pre ++ [(start - 1, base)]) /\ start - 1 <= last_recv_frame R).

Definition epl_ack_value_ok (R : ep) (sent : list ibytes) (r : Z) : Prop :=
  r <= last_recv_frame R /\ (r = NULL \/ exists b, In (r, b) sent).
Definition epl_ack_ok (R : ep) (sent : list ibytes) (m : message) : Prop :=
  match m_body m with
  | InputAck r => epl_ack_value_ok R sent r
  | Input _ _ _ r _ => epl_ack_value_ok R sent r
  | _ => True
  end.

(* send queues are never drained in the link model: they are the sets of packets ever sent *)
Definition epl_inv (S R : ep) (sent : list ibytes) : Prop :=
  0 <= f0 /\ (1 <= nh)%nat /\ 4 * Z.of_nat nh <= 65535 /\
  epl_sent_ok sent /\ epl_sender_ok S sent /\ epl_receiver_ok R sent /\
  fst (u_last_acked S) <= last_recv_frame R /\
  Forall (epl_packet_ok R sent) (u_send_queue S) /\ Forall (epl_ack_ok R sent) (u_send_queue R).

Lemma epl_packet_ok_is : forall R sent m st dr start ack bytes, m_body m = Input st dr start ack bytes ->
  epl_packet_ok R sent m <-> exists a frames c base, epl_packet_is R sent start bytes a frames c base.
Proof. intros R sent m st dr start ack bytes Hb. unfold epl_packet_ok, epl_packet_is. rewrite Hb. tauto. Qed.

Lemma epl_packet_ok_mono : forall R R' sent x m,
  last_recv_frame R <= last_recv_frame R' -> epl_packet_ok R sent m -> epl_packet_ok R' (sent ++ x) m.
Proof.
  intros R R' sent x m L H. unfold epl_packet_ok in *. destruct (m_body m); try exact I.
  destruct H as (a & frames & c & base & E & Hn & Hl & Hs & Hb & Hbase).
  exists a, frames, (c ++ x), base. rewrite E, <- !app_assoc. split; [reflexivity|]. repeat (split; [assumption|]).
  destruct Hbase as [Hbase|(Hbase & Hle)]; [left; exact Hbase|right; split; [exact Hbase|lia]].
Qed.

Lemma epl_ack_ok_mono : forall R R' sent x m,
  last_recv_frame R <= last_recv_frame R' -> epl_ack_ok R sent m -> epl_ack_ok R' (sent ++ x) m.
Proof.
  intros R R' sent x m L H. unfold epl_ack_ok, epl_ack_value_ok in *.
  destruct (m_body m); try exact I; destruct H as (H1 & H2); (split; [lia|]);
    (destruct H2 as [H2|(b & H2)]; [left; exact H2|right; exists b; apply in_app_iff; left; exact H2]).
Qed.

Lemma epl_receiver_ok_mono : forall R sent x, epl_receiver_ok R sent -> epl_receiver_ok R (sent ++ x).
Proof.
  intros R sent x (A & B & C & D & R1). repeat (split; [assumption|]). intros k v X.
  destruct (R1 _ _ X) as [Y|Y]; [left; exact Y|right; apply in_app_iff; left; exact Y].
Qed.

Lemma epl_plain_packet_ok : forall R sent m, epl_plain (m_body m) = true -> epl_packet_ok R sent m /\ epl_ack_ok R sent m.
Proof. intros R sent m H. unfold epl_packet_ok, epl_ack_ok. destruct (m_body m); try discriminate; auto. Qed.

Lemma epl_receiver_ri : forall R sent, epl_receiver_ok R sent -> eps_ri_ok R.
Proof. intros R sent (_ & (_ & _ & Hri) & Hw & _). exact (Hri Hw). Qed.

Lemma epl_receiver_lrf : forall R sent, epl_receiver_ok R sent ->
  exists b, In (last_recv_frame R, b) (u_recv_inputs R) /\
    ((last_recv_frame R = NULL /\ b = epl_zeros nh) \/ In (last_recv_frame R, b) sent).
Proof.
  intros R sent HR. destruct (eps_ri_ok_lrf _ (epl_receiver_ri _ _ HR)) as (_ & K & _).
  unfold eps_keys in K. apply in_map_iff in K. destruct K as ([k b] & <- & K).
  destruct HR as (_ & _ & _ & _ & R1). exists b. split; [exact K|exact (R1 _ _ K)].
Qed.

Lemma epl_lrf_value_ok : forall R sent, epl_receiver_ok R sent -> epl_ack_value_ok R sent (last_recv_frame R).
Proof.
  intros R sent HR. destruct (epl_receiver_lrf _ _ HR) as (b & _ & [(E & _)|E]).
  - split; [lia|left; exact E].
  - split; [lia|right; eauto].
Qed.

Lemma epl_consec_length_fst : forall l f x, epl_consec f (l ++ [x]) -> fst x = f + Z.of_nat (length l).
Proof. intros l f x H. apply epl_consec_app in H. destruct H as (_ & H). cbn in H. tauto. Qed.

Lemma epl_current_packet_is : forall cs S R sent m,
  epl_sent_ok sent -> epl_sender_ok S sent -> fst (u_last_acked S) <= last_recv_frame R ->
  epl_packet cs S = Some m ->
  exists start bytes acked, m = mkMsg (u_magic S) (Input cs false start (last_recv_frame S) bytes) /\
    sent = acked ++ u_pending_output S /\
    epl_packet_is R sent start bytes acked (u_pending_output S) [] (snd (u_last_acked S)).
Proof.
  intros cs S R sent m (Hc & _ & _) (Srun & Hlen & acked & Es & Hla) Hle Hp. unfold epl_packet in Hp.
  destruct (u_pending_output S) as [|[f x] r] eqn:Epo; [discriminate|]. inversion Hp; subst m. clear Hp.
  rewrite Srun. cbn [pstate_eqb].
  exists f, (Codec.encode (snd (u_last_acked S)) (map snd ((f, x) :: r))), acked.
  split; [reflexivity|]. split; [exact Es|].
  rewrite Es in Hc. apply epl_consec_app in Hc. destruct Hc as (Hc1 & Hc2). cbn [epl_consec fst] in Hc2.
  unfold epl_packet_is. rewrite app_nil_r.
  split; [exact Es|]. split; [discriminate|]. split; [exact Hlen|]. split; [tauto|]. split; [reflexivity|].
  destruct Hla as [(-> & Ela)|(pre & Ea)].
  - left. rewrite Ela. auto.
  - right. subst acked. pose proof (epl_consec_length_fst _ _ _ Hc1) as Ef. rewrite app_length in Hc2. cbn [length] in Hc2.
    assert (E : f - 1 = fst (u_last_acked S)) by lia. split; [|lia].
    exists pre. rewrite E. destruct (u_last_acked S); reflexivity.
Qed.

Lemma epl_current_packet_ok : forall cs S R sent m,
  epl_sent_ok sent -> epl_sender_ok S sent -> fst (u_last_acked S) <= last_recv_frame R ->
  epl_packet cs S = Some m -> epl_packet_ok R sent m.
Proof.
  intros cs S R sent m Hsent HS Hle Hp.
  destruct (epl_current_packet_is cs S R sent m Hsent HS Hle Hp) as (start & bytes & acked & -> & _ & Pis).
  apply (epl_packet_ok_is R sent (mkMsg (u_magic S) _) cs false start (last_recv_frame S) bytes eq_refl). eauto.
Qed.

Lemma epl_sender_pop : forall S S' sent r,
  epl_sent_ok sent -> epl_sender_ok S sent -> (r = NULL \/ exists b, In (r, b) sent) -> 0 <= f0 ->
  u_state S' = PRunning ->
  (u_pending_output S', u_last_acked S') = pop_pending r (u_pending_output S) (u_last_acked S) ->
  epl_sender_ok S' sent /\
  ((u_last_acked S' = u_last_acked S /\ r < f0 + Z.of_nat (length sent) - Z.of_nat (length (u_pending_output S))) \/
   fst (u_last_acked S') = r).
Proof.
  intros S S' sent r (Hc & _ & _) (_ & Slen & acked & Es & Hla) Hr H0 Srun' Hp.
  rewrite Es in Hc. apply epl_consec_app in Hc. destruct Hc as (Hc1 & Hc2).
  assert (Hwhere : r < f0 + Z.of_nat (length acked) \/ exists b, In (r, b) (u_pending_output S)).
  { destruct Hr as [->|(b & Hin)]; [unfold NULL; lia|]. rewrite Es in Hin. apply in_app_iff in Hin.
    destruct Hin as [Hin|Hin]; [|eauto]. pose proof (epl_consec_in _ _ _ Hc1 Hin) as X. cbn [fst] in X. lia. }
  destruct Hwhere as [Hlt|(b & Hin)].
  - rewrite epl_pop_stops in Hp by (destruct (u_pending_output S) as [|x rest]; [exact I|cbn [epl_consec] in Hc2; lia]).
    injection Hp as Q1 Q2. split; [|left; split; [exact Q2|rewrite Es, app_length; unfold ibytes in *; lia]].
    split; [exact Srun'|]. rewrite Q1, Q2. split; [exact Slen|]. exists acked. auto.
  - apply in_split in Hin. destruct Hin as (pre & post & Epo). rewrite Epo in Hp, Hc2.
    rewrite (epl_pop_consec _ pre r b post _ Hc2) in Hp. inversion Hp as [[Q1 Q2]].
    split; [|right; rewrite Q2; reflexivity].
    split; [exact Srun'|]. rewrite Q1, Q2.
    split; [rewrite Epo, app_length in Slen; cbn [length] in Slen; unfold ibytes in *; lia|].
    exists (acked ++ pre ++ [(r, b)]). split; [rewrite Es, Epo, <- !app_assoc; reflexivity|].
    right. exists (acked ++ pre). rewrite app_assoc. reflexivity.
Qed.

Lemma epl_step_message : forall now nonce m s s',
  handle_message dbg now nonce m s = Ok s' -> step dbg (OMessage now nonce m) s = Ok (s', []).
Proof.
  intros now nonce m s s' H. unfold step. cbn [step_gen].
  change (handle_message_gen current_code) with handle_message. rewrite H. reflexivity.
Qed.

Lemma epl_wire_size_uniform : forall n (l : list (list N)),
  Forall (fun i => length i = n) l -> wire_size l = (length l * (2 + n))%nat.
Proof.
  induction l as [|x l IH]; intro F; [reflexivity|]. inversion F as [|? ? F1 F2]; subst.
  cbn [wire_size length]. rewrite (IH F2). lia.
Qed.

Lemma epl_segment_sizes : forall sent a frames c, epl_sent_ok sent -> sent = a ++ frames ++ c ->
  Forall (fun i => length i = (4 * nh)%nat) (map snd frames).
Proof.
  intros sent a frames c (_ & Hlen & _) Es. apply Forall_forall. intros i Hi. apply in_map_iff in Hi.
  destruct Hi as (x & <- & Hx). rewrite Forall_forall in Hlen. apply Hlen. rewrite Es.
  apply in_app_iff. right. apply in_app_iff. left. exact Hx.
Qed.

Lemma epl_segment_roundtrip : forall ref (l : list (list N)),
  4 * Z.of_nat nh <= 65535 -> Forall (fun i => length i = (4 * nh)%nat) l ->
  (length l <= N.to_nat PENDING_OUTPUT_SIZE + 1)%nat ->
  Codec.decode dbg ref (Codec.encode ref l) = Ok l.
Proof.
  intros ref l Hnh Hfl Hl. unfold PENDING_OUTPUT_SIZE in Hl. apply (codec_roundtrip eps_cap_ok).
  - eapply Forall_impl; [|exact Hfl]. intros i Hi. cbn beta in Hi. lia.
  - rewrite (epl_wire_size_uniform _ _ Hfl). unfold MAX_DECODED_LEN.
    (* (PENDING_OUTPUT_SIZE + 1) frames of 2 + 65535 bytes on the wire are MAX_DECODED_LEN exactly *)
    assert (Hx : Z.of_nat (length l) * (2 + 4 * Z.of_nat nh) <= 129 * 65537) by (apply Z.mul_le_mono_nonneg; lia).
    lia.
  - unfold MAX_DECODED_INPUTS. lia.
Qed.

Lemma epl_decode_packet_ok : forall R sent start bytes ref a frames c base,
  0 <= f0 -> 4 * Z.of_nat nh <= 65535 ->
  epl_sent_ok sent -> epl_receiver_ok R sent -> epl_packet_is R sent start bytes a frames c base ->
  alookup (eps_decode_frame R start) (u_recv_inputs R) = Some ref ->
  Codec.decode dbg ref bytes = Ok (map snd frames).
Proof.
  intros R sent start bytes ref a frames c base H0 Hnh Hsent (_ & _ & _ & _ & R1) Hp El.
  pose proof Hsent as (Hc & _). destruct Hp as (Es & Hne & Hl & Hst & Hby & Hbase).
  assert (Hge : forall k b, In (k, b) sent -> f0 <= k).
  { intros k b X. pose proof (epl_consec_in _ _ _ Hc X). cbn [fst] in *. lia. }
  assert (Hb : forall pre, a = pre ++ [(start - 1, base)] -> In (start - 1, base) sent).
  { intros pre Ea. rewrite Es, Ea. apply in_app_iff. left. apply in_app_iff. right. left. reflexivity. }
  assert (Eref : ref = base).
  { apply eps_alookup_in in El. unfold eps_decode_frame in El.
    destruct (R1 _ _ El) as [(Ek & Er)|Hin].
    - destruct Hbase as [(_ & ->)|((pre & Ea) & Hle)]; [exact Er|]. exfalso.
      specialize (Hge _ _ (Hb _ Ea)). destruct (last_recv_frame R =? NULL) eqn:En; unfold NULL in *; lia.
    - destruct (last_recv_frame R =? NULL) eqn:En.
      + specialize (Hge _ _ Hin). unfold NULL in *. lia.
      + destruct Hbase as [(-> & _)|((pre & Ea) & Hle)].
        * specialize (Hge _ _ Hin). cbn [length] in Hst. lia.
        * exact (epl_consec_unique _ _ _ _ _ Hc Hin (Hb _ Ea)). }
  subst ref bytes.
  apply epl_segment_roundtrip; [exact Hnh|exact (epl_segment_sizes _ _ _ _ Hsent Es)|rewrite map_length; exact Hl].
Qed.

Lemma epl_segment_frame : forall sent a frames c j inp,
  epl_sent_ok sent -> sent = a ++ frames ++ c -> nth_error (map snd frames) j = Some inp ->
  In (f0 + Z.of_nat (length a) + Z.of_nat j, inp) sent /\ f0 + Z.of_nat (length a) + Z.of_nat j <= TS_I32_MAX.
Proof.
  intros sent a frames c j inp (Hc & _ & Hmax) Es Hj.
  rewrite nth_error_map in Hj. unfold ibytes in *.
  destruct (nth_error frames j) as [[kx vx]|] eqn:Ej; [|cbn in Hj; discriminate].
  cbn in Hj. inversion Hj; subst vx.
  rewrite Es in Hc. apply epl_consec_app in Hc. destruct Hc as (_ & Hc). apply epl_consec_app in Hc. destruct Hc as (Hc & _).
  pose proof (epl_consec_nth _ _ _ _ Hc Ej) as Ekx. cbn [fst] in Ekx.
  assert (Hjl : (j < length frames)%nat) by (apply nth_error_Some; rewrite Ej; discriminate).
  rewrite Es, !app_length in Hmax. unfold ibytes in *. rewrite <- Ekx. split; [|lia].
  rewrite Es. apply in_app_iff. right. apply in_app_iff. left. exact (nth_error_In _ _ Ej).
Qed.

Lemma epl_input_exit_ack : forall now st dr sf af bytes s s',
  eps_input_exit dbg now st dr sf af bytes s s' -> eps_ri_ok s -> eps_window_ok s ->
  u_send_queue s' = u_send_queue s \/
  u_send_queue s' = u_send_queue s ++ [mkMsg (u_magic s) (InputAck (last_recv_frame s'))].
Proof.
  intros now st dr sf af bytes s s' X Hok Hw.
  destruct (epl_input_exit_cases _ _ _ _ _ _ _ _ _ X)
    as [(E & Hq & _)|(s2 & ref & ins & acc & s4 & Eh & Hs & El & Ed & Ea & Hexit)].
  { rewrite (eps_last_recv_frame_ext _ _ E). exact Hq. }
  destruct (eps_header_ri _ _ _ _ _ _ Eh) as (_ & Hok2 & Hw2).
  destruct (epl_header_queues _ _ _ _ _ _ Eh) as (E2 & E3 & _).
  destruct (accept_inputs_shape _ _ _ _ _ _ _ Ea) as (ri & evs & E4 & _).
  destruct acc.
  - right. destruct Hexit as (w & lo & Ew & Elo & ->).
    destruct (epl_complete_exit dbg now sf ins (set_last_input_recv now s2) s4 w lo ref (Hok2 Hok) (Hw2 Hw) Hs El Ea Ew Elo)
      as (B & _).
    cbv zeta in B. rewrite B, <- E2, <- E3, E4. reflexivity.
  - left. subst s'. rewrite E4. exact E2.
Qed.

Lemma epl_receive_packet : forall R sent m st dr start ack bytes now nonce R',
  0 <= f0 -> 4 * Z.of_nat nh <= 65535 ->
  epl_sent_ok sent -> epl_receiver_ok R sent -> m_body m = Input st dr start ack bytes -> epl_packet_ok R sent m ->
  handle_message dbg now nonce m R = Ok R' ->
  epl_receiver_ok R' sent /\ last_recv_frame R <= last_recv_frame R' /\
  (u_send_queue R' = u_send_queue R \/
   u_send_queue R' = u_send_queue R ++ [mkMsg (u_magic R) (InputAck (last_recv_frame R'))]).
Proof.
  intros R sent m st dr start ack bytes now nonce R' H0 Hnh Hsent HR Hb Hp H.
  pose proof HR as (Hst & Hinv & Hw & Hh & R1). pose proof (epl_receiver_ri _ _ HR) as Hri.
  pose proof (eps_input_exits _ _ _ _ _ _ _ _ _ _ _ Hb H) as X.
  destruct (epl_input_exit_static _ _ _ _ _ _ _ _ _ X) as (Est & _ & Eh' & Emp & _).
  destruct (eps_input_exit_ri _ _ _ _ _ _ _ _ _ X Hw Hri) as (_ & Hmono).
  split; [|split; [exact Hmono|exact (epl_input_exit_ack _ _ _ _ _ _ _ _ X Hri Hw)]].
  split; [congruence|]. split; [eapply eps_inv_step; [exact Hinv|apply epl_step_message; exact H]|].
  split; [unfold eps_window_ok in *; rewrite Emp; exact Hw|]. split; [congruence|].
  destruct (epl_input_exit_cases _ _ _ _ _ _ _ _ _ X)
    as [(E & _)|(s2 & ref & ins & acc & s4 & Eh & Hs & El & Ed & Ea & Hexit)]; [rewrite E; exact R1|].
  destruct (eps_header_recv _ _ _ _ _ _ Eh) as (E1 & _). destruct (eps_header_ri _ _ _ _ _ _ Eh) as (Edf & Hok2 & Hw2).
  pose proof El as El2. rewrite Edf, E1 in El.
  apply (epl_packet_ok_is R sent m _ _ _ _ _ Hb) in Hp. destruct Hp as (a & frames & c & base & Hp).
  pose proof (epl_decode_packet_ok R sent start bytes ref a frames c base H0 Hnh Hsent HR Hp El) as Ed'.
  rewrite Ed' in Ed. inversion Ed; subst ins. destruct Hp as (Es & _ & _ & Hstart & _).
  assert (Hmin : TS_I32_MIN <= start + 0) by (unfold TS_I32_MIN; lia).
  destruct (eps_accept_spec _ _ _ _ _ _ _ Ea Hmin) as (_ & _ & _ & D & _).
  assert (Hnew : forall k v, In (k, v) (u_recv_inputs s4) -> (k = NULL /\ v = epl_zeros nh) \/ In (k, v) sent).
  { intros k v Hin. destruct (D _ _ Hin) as [Hold|(_ & _ & j & Hj & Hk)].
    - apply R1. cbn [u_recv_inputs set_last_input_recv] in Hold. rewrite E1 in Hold. exact Hold.
    - right. destruct (epl_segment_frame sent a frames c j v Hsent Es Hj) as (Hin' & Hmax).
      rewrite Z.add_0_r, Hstart, eps_i32_exact in Hk by (unfold TS_I32_MIN; lia). injection Hk as <-. exact Hin'. }
  destruct acc; [destruct Hexit as (w & lo & Ew & Elo & ->)|subst R'; exact Hnew].
  intros k v Hin. apply Hnew.
  exact (proj1 (proj2 (epl_complete_exit dbg now start _ (set_last_input_recv now s2) s4 w lo ref (Hok2 Hri) (Hw2 Hw) Hs El2 Ea Ew Elo)) k v Hin).
Qed.

Inductive epl_step : ep * ep * list ibytes -> ep * ep * list ibytes -> Prop :=
(* the session hands S the next frame (while S has at most PENDING_OUTPUT_SIZE unacknowledged inputs:
   the sessions disconnect an endpoint that exceeds it) *)
| epl_step_send : forall S R sent now inputs cs S' out b,
    from_inputs (u_num_players S) inputs = Ok (f0 + Z.of_nat (length sent), b) -> length b = (4 * nh)%nat ->
    f0 + Z.of_nat (length sent) <= TS_I32_MAX ->
    (length (u_pending_output S) <= N.to_nat PENDING_OUTPUT_SIZE)%nat ->
    step dbg (OSendInput now inputs cs) S = Ok (S', out) ->
    epl_step (S, R, sent) (S', R, sent ++ [(f0 + Z.of_nat (length sent), b)])
(* either endpoint is polled at any time (retry timers, quality reports, keep-alives) *)
| epl_step_poll_s : forall S R sent now nonce cs S' out,
    step dbg (OPoll now nonce cs) S = Ok (S', out) -> epl_step (S, R, sent) (S', R, sent)
| epl_step_poll_r : forall S R sent now nonce cs R' out,
    step dbg (OPoll now nonce cs) R = Ok (R', out) -> epl_step (S, R, sent) (S, R', sent)
(* the network delivers any packet ever sent, at any time, any number of times (loss = never) *)
| epl_step_deliver_sr : forall S R sent now nonce m R' out,
    In m (u_send_queue S) -> step dbg (OMessage now nonce m) R = Ok (R', out) -> epl_step (S, R, sent) (S, R', sent)
| epl_step_deliver_rs : forall S R sent now nonce m S' out,
    In m (u_send_queue R) -> step dbg (OMessage now nonce m) S = Ok (S', out) -> epl_step (S, R, sent) (S', R, sent).

(* a step moves one endpoint; the rest of the invariant is monotone in last_recv_frame(R) and in [sent] *)
Lemma epl_inv_R_moves : forall S R R' sent,
  epl_inv S R sent -> epl_receiver_ok R' sent -> last_recv_frame R <= last_recv_frame R' ->
  epl_app (epl_ack_ok R' sent) R R' -> epl_inv S R' sent.
Proof.
  intros S R R' sent (H0 & Hn1 & Hn2 & Hsent & HS & HR & H3 & M1 & M2) HR' Hle Happ.
  repeat (split; [assumption|]). split; [lia|]. split.
  - eapply Forall_impl; [|exact M1]. intros m Hm. rewrite <- (app_nil_r sent). eapply epl_packet_ok_mono; eauto.
  - eapply epl_app_forall; [|exact Happ]. eapply Forall_impl; [|exact M2]. intros m Hm.
    rewrite <- (app_nil_r sent). eapply epl_ack_ok_mono; eauto.
Qed.

Lemma epl_inv_S_moves : forall S S' R sent x,
  epl_inv S R sent -> epl_sent_ok (sent ++ x) -> epl_sender_ok S' (sent ++ x) ->
  fst (u_last_acked S') <= last_recv_frame R ->
  epl_app (epl_packet_ok R (sent ++ x)) S S' -> epl_inv S' R (sent ++ x).
Proof.
  intros S S' R sent x (H0 & Hn1 & Hn2 & _ & _ & HR & _ & M1 & M2) Hsent' HS' H3' Happ.
  repeat (split; [assumption|]). split; [apply epl_receiver_ok_mono; exact HR|]. split; [exact H3'|]. split.
  - eapply epl_app_forall; [|exact Happ]. eapply Forall_impl; [|exact M1]. intros m Hm.
    eapply epl_packet_ok_mono; [|exact Hm]. lia.
  - eapply Forall_impl; [|exact M2]. intros m Hm. eapply epl_ack_ok_mono; [|exact Hm]. lia.
Qed.

Lemma epl_inv_S_moves_same : forall S S' R sent,
  epl_inv S R sent -> epl_sender_ok S' sent -> fst (u_last_acked S') <= last_recv_frame R ->
  epl_app (epl_packet_ok R sent) S S' -> epl_inv S' R sent.
Proof.
  intros S S' R sent HI HS' H3' Happ. pose proof HI as (_ & _ & _ & Hsent & _).
  rewrite <- (app_nil_r sent). apply (epl_inv_S_moves S S' R sent [] HI); rewrite ?app_nil_r; assumption.
Qed.

Lemma epl_sender_ok_ext : forall S S' sent, epl_sender_ok S sent -> u_state S' = PRunning ->
  u_pending_output S' = u_pending_output S -> u_last_acked S' = u_last_acked S -> epl_sender_ok S' sent.
Proof. intros S S' sent (_ & L & A) Hr E1 E2. unfold epl_sender_ok. rewrite E1, E2. auto. Qed.

Lemma epl_receiver_ok_ext : forall R R' sent o out, epl_receiver_ok R sent -> step dbg o R = Ok (R', out) ->
  u_state R' = PRunning -> u_max_prediction R' = u_max_prediction R -> u_handles R' = u_handles R ->
  u_recv_inputs R' = u_recv_inputs R -> epl_receiver_ok R' sent.
Proof.
  intros R R' sent o out (_ & Hinv & Hw & Hh & R1) Hstp Hr E1 E2 E3.
  split; [exact Hr|]. split; [exact (eps_inv_step _ _ _ _ _ Hinv Hstp)|].
  unfold eps_window_ok. rewrite E1, E2, E3. auto.
Qed.

Lemma epl_send_input_packet : forall now inputs cs S S',
  send_input now inputs cs S = Ok S' -> u_state S = PRunning ->
  exists data m, from_inputs (u_num_players S) inputs = Ok data /\ u_state S' = PRunning /\
    u_pending_output S' = u_pending_output S ++ [data] /\ u_last_acked S' = u_last_acked S /\
    epl_packet cs S' = Some m /\ u_send_queue S' = u_send_queue S ++ [m].
Proof.
  intros now inputs cs S S' H Hr. apply send_input_inv in H. rewrite Hr in H. cbn [pstate_eqb] in H.
  destruct H as (data & ts & f & Ed & Ehd & ->). cbv zeta in Ehd. exists data. eexists. split; [exact Ed|].
  unfold epl_packet, last_recv_frame. fs. rewrite Hr. cbn [pstate_eqb]. split; [reflexivity|].
  split; [reflexivity|]. split; [reflexivity|]. split; [|reflexivity].
  destruct (u_pending_output S ++ [data]) as [|[f1 y] q]; [discriminate|]. injection Ehd as <-. reflexivity.
Qed.

Lemma epl_handle_any : forall now nonce m X X', handle_message dbg now nonce m X = Ok X' ->
  (u_state X = PRunning -> u_state X' = PRunning) /\
  ((u_pending_output X', u_last_acked X') = (u_pending_output X, u_last_acked X) \/
   exists r, (forall R sent, epl_ack_ok R sent m -> epl_ack_value_ok R sent r) /\
     (u_pending_output X', u_last_acked X') = pop_pending r (u_pending_output X) (u_last_acked X)) /\
  epl_app (fun x => forall R sent, epl_packet_ok R sent x) X X'.
Proof.
  intros now nonce m X X' H. destruct (eps_input_body_dec m) as [(st & dr & sf & af & bytes & Eb)|Hni].
  - pose proof (eps_input_exits _ _ _ _ _ _ _ _ _ _ _ Eb H) as E.
    destruct (epl_input_exit_static _ _ _ _ _ _ _ _ _ E) as (A1 & _). destruct (epl_input_exit_sender _ _ _ _ _ _ _ _ _ E) as (A11 & A12).
    split; [congruence|]. split.
    + destruct A11 as [A11|A11]; [left; exact A11|right]. exists af. split; [|exact A11].
      intros R sent. unfold epl_ack_ok. rewrite Eb. auto.
    + destruct A12 as [A12|(f & A12)]; [apply epl_app_same; exact A12|].
      eapply epl_app_one; [exact A12|]. intros R sent. exact I.
  - destruct (epl_other_keeps _ _ _ _ _ _ Hni H) as (_ & _ & _ & K5 & K6).
    split; [destruct K5 as [K5|(K5 & _)]; congruence|]. split.
    + destruct K6 as [K6|(r & Eb & K6)]; [left; exact K6|right]. exists r. split; [|exact K6].
      intros R sent. unfold epl_ack_ok. rewrite Eb. auto.
    + eapply epl_app_impl; [|exact (proj1 (epl_other_queues _ _ _ _ _ _ Hni H))].
      intros y Hy R sent. apply epl_plain_packet_ok. exact Hy.
Qed.

Theorem epl_inv_step : forall S R sent S' R' sent',
  epl_inv S R sent -> epl_step (S, R, sent) (S', R', sent') -> epl_inv S' R' sent'.
Proof.
  intros S R sent S' R' sent' HI Hstep.
  pose proof HI as (H0 & Hn1 & Hn2 & Hsent & HS & HR & H3 & M1 & M2).
  inversion Hstep as [? ? ? now inputs cs ? out b Hfrom Hlenb Hmax Hlen Hstp
                     |? ? ? now nonce cs ? out Hstp|? ? ? now nonce cs ? out Hstp
                     |? ? ? now nonce m ? out Hin Hstp|? ? ? now nonce m ? out Hin Hstp]; subst; clear Hstep;
    pose proof (step_inv _ _ _ _ _ Hstp) as H; cbv beta iota in H.
  - destruct H as (E & _). pose proof HS as (Srun & Slen & acked & Es & Hla).
    destruct (epl_send_input_packet _ _ _ _ _ E Srun) as (data & m & Ed & Srun' & Epo & Ela & Epk & Eq).
    rewrite Hfrom in Ed. inversion Ed; subst data. clear Ed.
    set (x := (f0 + Z.of_nat (length sent), b)) in *.
    assert (Hsent' : epl_sent_ok (sent ++ [x])).
    { destruct Hsent as (Hc & Hl & Hm). split; [|split].
      - apply epl_consec_app. split; [exact Hc|]. cbn. auto.
      - apply Forall_app. split; [exact Hl|]. constructor; [exact Hlenb|constructor].
      - rewrite app_length. cbn [length]. lia. }
    assert (HS' : epl_sender_ok S' (sent ++ [x])).
    { split; [exact Srun'|]. rewrite Epo, Ela. split; [rewrite app_length; cbn [length]; lia|].
      exists acked. split; [rewrite Es, app_assoc; reflexivity|exact Hla]. }
    apply (epl_inv_S_moves S S' R' sent [x] HI Hsent' HS'); [rewrite Ela; exact H3|].
    eapply epl_app_one; [exact Eq|].
    apply (epl_current_packet_ok cs S' R' _ m Hsent' HS'); [rewrite Ela; exact H3|exact Epk].
  - destruct (epl_poll_at_running _ _ _ _ _ _ H (proj1 HS)) as (t & bs & i & r & Et & _ & E' & Eq).
    pose proof (epl_poll_messages _ _ _ _ Et) as Hmsg. rewrite Eq in E'.
    assert (HS' : epl_sender_ok S' sent')
      by (apply (epl_sender_ok_ext S); [exact HS| | |]; rewrite E'; try reflexivity; apply HS).
    assert (Ela : u_last_acked S' = u_last_acked S) by (rewrite E'; reflexivity).
    assert (Hmsg' : epl_app (fun m => epl_packet cs S = Some m \/ epl_plain (m_body m) = true) S S')
      by (rewrite E', <- Eq; exact Hmsg).
    apply (epl_inv_S_moves_same S S' R' sent' HI HS'); [rewrite Ela; exact H3|].
    eapply epl_app_impl; [|exact Hmsg']. intros m [Hm|Hm].
    + exact (epl_current_packet_ok cs S R' sent' m Hsent HS H3 Hm).
    + apply epl_plain_packet_ok. exact Hm.
  - (* R polls: its own Input packets carry last_recv_frame(R) *)
    destruct (epl_poll_at_running _ _ _ _ _ _ H (proj1 HR)) as (t & bs & i & r & Et & _ & E' & Eq).
    pose proof (epl_poll_messages _ _ _ _ Et) as Hmsg. rewrite Eq in E'.
    assert (HR' : epl_receiver_ok R' sent')
      by (apply (epl_receiver_ok_ext R R' sent' _ _ HR Hstp); rewrite E'; try reflexivity; apply HR).
    assert (Elrf : last_recv_frame R' = last_recv_frame R) by (rewrite E'; reflexivity).
    apply (epl_inv_R_moves S' R R' sent' HI HR'); [lia|].
    assert (Hmsg' : epl_app (fun m => epl_packet cs R = Some m \/ epl_plain (m_body m) = true) R R')
      by (rewrite E', <- Eq; exact Hmsg).
    eapply epl_app_impl; [|exact Hmsg']. intros m [Hm|Hm]; [|apply epl_plain_packet_ok; exact Hm].
    unfold epl_packet in Hm. destruct (u_pending_output R) as [|[f y] q]; [discriminate|]. inversion Hm; subst m.
    unfold epl_ack_ok. cbn [m_body]. rewrite <- Elrf. apply epl_lrf_value_ok. exact HR'.
  - destruct H as (H & _). rewrite Forall_forall in M1. specialize (M1 _ Hin).
    destruct (eps_input_body_dec m) as [(st & dr & sf & af & bytes & Eb)|Hni].
    + destruct (epl_receive_packet R sent' m st dr sf af bytes now nonce R' H0 Hn2 Hsent HR Eb M1 H) as (HR' & Hmono & Hq).
      apply (epl_inv_R_moves S' R R' sent' HI HR' Hmono).
      destruct Hq as [Hq|Hq]; [apply epl_app_same; exact Hq|]. eapply epl_app_one; [exact Hq|].
      unfold epl_ack_ok. cbn [m_body]. apply epl_lrf_value_ok. exact HR'.
    + destruct (epl_other_keeps _ _ _ _ _ _ Hni H) as (K1 & K2 & K3 & K5 & _).
      assert (Rrun' : u_state R' = PRunning) by (destruct HR as (Rrun & _); destruct K5 as [X|(X & _)]; congruence).
      pose proof (epl_receiver_ok_ext _ _ _ _ _ HR Hstp Rrun' K3 K2 K1) as HR'.
      apply (epl_inv_R_moves S' R R' sent' HI HR'); [rewrite (eps_last_recv_frame_ext _ _ K1); lia|].
      eapply epl_app_impl; [|exact (proj1 (epl_other_queues _ _ _ _ _ _ Hni H))].
      intros y Hy. apply epl_plain_packet_ok. exact Hy.
  - (* a packet of R reaches S: S pops at most up to an acknowledgement of R *)
    destruct H as (H & _). rewrite Forall_forall in M2. specialize (M2 _ Hin).
    destruct (epl_handle_any _ _ _ _ _ H) as (Srun' & Hpop & Happ).
    assert (HS' : epl_sender_ok S' sent' /\ fst (u_last_acked S') <= last_recv_frame R').
    { destruct Hpop as [Hpop|(r & Hr & Hpop)].
      - injection Hpop as Q1 Q2. split; [|rewrite Q2; exact H3].
        apply (epl_sender_ok_ext S); [exact HS|apply Srun', HS|exact Q1|exact Q2].
      - destruct (Hr _ _ M2) as (Hr1 & Hr2).
        destruct (epl_sender_pop S S' sent' r Hsent HS Hr2 H0 (Srun' (proj1 HS)) Hpop) as (A & B).
        split; [exact A|]. destruct B as [(-> & _)|B]; [exact H3|lia]. }
    apply (epl_inv_S_moves_same S S' R' sent' HI (proj1 HS') (proj2 HS')).
    eapply epl_app_impl; [|exact Happ]. intros y Hy. apply Hy.
Qed.

Inductive epl_steps : ep * ep * list ibytes -> ep * ep * list ibytes -> Prop :=
| epl_steps_refl : forall x, epl_steps x x
| epl_steps_cons : forall x y z, epl_step x y -> epl_steps y z -> epl_steps x z.

Theorem epl_inv_steps : forall x y, epl_steps x y ->
  epl_inv (fst (fst x)) (snd (fst x)) (snd x) -> epl_inv (fst (fst y)) (snd (fst y)) (snd y).
Proof.
  induction 1 as [|[[S R] sent] [[S1 R1] sent1] z Hs _ IH]; intro HI; [exact HI|].
  apply IH. cbn [fst snd] in *. eapply epl_inv_step; eauto.
Qed.

Lemma epl_receiver_keeps_last : forall S R sent, epl_inv S R sent ->
  exists b, alookup (last_recv_frame R) (u_recv_inputs R) = Some b /\
    -1 <= last_recv_frame R <= f0 + Z.of_nat (length sent) - 1 /\
    (last_recv_frame R = NULL \/ In (last_recv_frame R, b) sent).
Proof.
  intros S R sent (H0 & _ & _ & (Hc & _ & _) & _ & HR & _).
  destruct (epl_receiver_lrf _ _ HR) as (b & K & Hb). exists b.
  split; [apply eps_alookup_nodup; [apply (epl_receiver_ri _ _ HR)|exact K]|].
  destruct Hb as [(E & _)|E].
  - split; [rewrite E; unfold NULL; lia|left; exact E].
  - pose proof (epl_consec_in _ _ _ Hc E) as X. cbn [fst] in X. split; [lia|right; exact E].
Qed.

(* progress, unlike safety, needs R to accept the packet (its filters, the number of statuses); [epl_compat] below
   says so of every packet the two endpoints exchange *)
Definition epl_accepts (R : ep) (m : message) (st : list status) : Prop :=
  passes_filters R m = true /\ Z.of_nat (length st) = u_num_players R.

Lemma epl_handle_good_packet : forall R sent m st start ack bytes now nonce a frames c base,
  0 <= f0 -> (1 <= nh)%nat -> 4 * Z.of_nat nh <= 65535 ->
  epl_sent_ok sent -> epl_receiver_ok R sent -> m_body m = Input st false start ack bytes ->
  epl_packet_is R sent start bytes a frames c base -> epl_accepts R m st ->
  exists R1, handle_message dbg now nonce m R = Ok R1 /\
    ((alookup (start - 1) (u_recv_inputs R) = None /\ 0 <= start <= last_recv_frame R /\
      u_recv_inputs R1 = u_recv_inputs R /\
      u_send_queue R1 = u_send_queue R ++ [mkMsg (u_magic R) (InputAck (last_recv_frame R))]) \/
     (last_recv_frame R1 = Z.max (last_recv_frame R) (start + Z.of_nat (length frames) - 1) /\
      u_send_queue R1 = u_send_queue R ++ [mkMsg (u_magic R) (InputAck (last_recv_frame R1))])).
Proof.
  intros R sent m st start ack bytes now nonce a frames c base H0 Hn1 Hn2 Hsent HR Hb Hp (Hpass & Hcs).
  pose proof HR as (Rrun & (Rwf & _) & Rw & Rh & R1). pose proof (epl_receiver_ri _ _ HR) as Rri.
  pose proof Hsent as (Hc & _ & Hmax). pose proof Hp as (Es & Hne & Hl & Hst & Hby & Hbase).
  assert (Hs : 0 <= start) by lia.
  destruct (alookup (eps_decode_frame R start) (u_recv_inputs R)) as [ref|] eqn:El.
  - (* the base is there: the segment is decoded, every frame has the right size, the loop runs to its end *)
    destruct (eps_handle_input_body dbg now nonce m st false start ack bytes R Hb Hpass Rwf (or_intror Hcs) Hs)
      as (s2 & Eh & ->).
    destruct (eps_header_recv _ _ _ _ _ _ Eh) as (Eri & Ehd & _). destruct (eps_header_ri _ _ _ _ _ _ Eh) as (Edf & Hok2 & Hw2).
    destruct (epl_header_queues _ _ _ _ _ _ Eh) as (Esq & Emg & _).
    pose proof (eps_last_recv_frame_ext _ _ Eri) as Elrf.
    pose proof (epl_decode_packet_ok R sent start bytes ref a frames c base H0 Hn2 Hsent HR Hp El) as Ed.
    assert (Hend : start + 0 + Z.of_nat (length (map snd frames)) - 1 <= TS_I32_MAX)
      by (rewrite map_length; rewrite Es, !app_length in Hmax; unfold ibytes in *; lia).
    assert (Hmin : TS_I32_MIN <= start + 0) by (unfold TS_I32_MIN; lia).
    destruct (eps_accept_total dbg start (map snd frames) 0 (set_last_input_recv now s2) (fun _ => Hend) Hmin)
      as (acc & s4 & Ea).
    assert (Hh : length (u_handles (set_last_input_recv now s2)) = nh)
      by (cbn [u_handles set_last_input_recv]; rewrite Ehd; exact Rh).
    assert (acc = true) as ->
      by (apply (epl_accept_sized _ _ _ _ _ _ _ 4 Ea); rewrite ?Hh; [lia|lia|exact (epl_segment_sizes _ _ _ _ Hsent Es)]).
    rewrite <- Edf, <- Eri in El.
    destruct (epl_body_complete dbg now start bytes s2 ref (map snd frames) s4) as (R1' & EB & L1 & Q);
      [exact (Hok2 Rri)|exact (Hw2 Rw)|exact Hs|exact El|exact Ed|exact Ea|].
    exists R1'. split; [exact EB|]. right. rewrite L1. split.
    + rewrite (epl_accept_lrf _ _ _ _ _ _ Ea Hend Hmin) by (destruct frames; [congruence|discriminate]).
      rewrite map_length. change (last_recv_frame (set_last_input_recv now s2)) with (last_recv_frame s2).
      rewrite Elrf, Z.add_0_r. reflexivity.
    + rewrite Q, Esq, Emg. reflexivity.
  - (* the base is gone: the packet is stale and is acknowledged again *)
    assert (Hstale : start <= last_recv_frame R /\ alookup (start - 1) (u_recv_inputs R) = None).
    { destruct (epl_receiver_lrf _ _ HR) as (bl & Kl & Hbl).
      assert (Hkey : forall k, alookup k (u_recv_inputs R) = None -> k <> last_recv_frame R)
        by (intros k X ->; apply eps_alookup_none in X; exact (X (in_map fst _ _ Kl))).
      unfold eps_decode_frame in El. destruct (last_recv_frame R =? NULL) eqn:En.
      - (* nothing received yet: the blank entry is there *)
        apply Z.eqb_eq in En. exfalso. exact (Hkey _ El (eq_sym En)).
      - split; [|exact El]. apply Z.eqb_neq in En. pose proof (Hkey _ El) as Hne'.
        destruct Hbase as [(-> & _)|((pre & Ea) & Hle)]; [|lia].
        (* a packet from the very beginning: last_recv_frame is a frame of the stream *)
        cbn [length] in Hst. destruct Hbl as [(E & _)|E]; [congruence|].
        pose proof (epl_consec_in _ _ _ Hc E) as X. cbn [fst] in X. lia. }
    destruct Hstale as (Hle & Hnone).
    destruct (epl_reack dbg now nonce m st false start ack bytes R Hb Hpass Rwf (or_intror Hcs) Hs Hnone Hle)
      as (R1' & E1 & Q1 & Q2 & _).
    exists R1'. split; [exact E1|]. left. split; [exact Hnone|]. split; [lia|]. auto.
Qed.

Lemma epl_passes_running : forall X m, u_state X = PRunning ->
  (u_remote_magic X = 0 \/ u_remote_magic X = m_magic m) -> passes_filters X m = true.
Proof.
  intros X m Hr Hm. unfold passes_filters. rewrite Hr. cbn [pstate_eqb negb andb orb].
  destruct Hm as [-> | ->]; [reflexivity|]. rewrite Z.eqb_refl. cbn [negb andb]. rewrite andb_false_r. reflexivity.
Qed.

Definition epl_compat (S R : ep) (cs : list status) : Prop :=
  (u_remote_magic R = 0 \/ u_remote_magic R = u_magic S) /\
  (u_remote_magic S = 0 \/ u_remote_magic S = u_magic R) /\
  Z.of_nat (length cs) = u_num_players R.

Definition epl_reply (R R1 : ep) : option message := nth_error (u_send_queue R1) (length (u_send_queue R)).

(* the nonce argument of handle_message is 0: only a matched SyncReply draws one, and these are Input and InputAck
   packets *)
Definition epl_exchange (t1 t2 t3 : Z) (cs : list status) (S R : ep) : res (ep * ep) :=
  match epl_packet cs S with
  | None => Ok (S, R)
  | Some P =>
    match handle_message dbg t1 0 P R with
    | Ok R1 =>
      match (match epl_reply R R1 with Some A => handle_message dbg t2 0 A S | None => Ok S end) with
      | Ok S1 =>
        match epl_packet cs S1 with
        | None => Ok (S1, R1)
        | Some P' =>
          match handle_message dbg t3 0 P' R1 with Ok R2 => Ok (S1, R2) | Err => Err | Panic => Panic end
        end
      | Err => Err
      | Panic => Panic
      end
    | Err => Err
    | Panic => Panic
    end
  end.

Lemma epl_sender_frames : forall S sent, epl_sent_ok sent -> epl_sender_ok S sent ->
  epl_consec (f0 + Z.of_nat (length sent) - Z.of_nat (length (u_pending_output S))) (u_pending_output S) /\
  (fst (u_last_acked S) = f0 + Z.of_nat (length sent) - Z.of_nat (length (u_pending_output S)) - 1 \/
   fst (u_last_acked S) = NULL).
Proof.
  intros S sent (Hc & _ & _) (_ & _ & acked & Es & Hla). rewrite Es in Hc. apply epl_consec_app in Hc.
  destruct Hc as (Hc1 & Hc2).
  assert (E : f0 + Z.of_nat (length sent) - Z.of_nat (length (u_pending_output S)) = f0 + Z.of_nat (length acked))
    by (rewrite Es, app_length; unfold ibytes in *; lia).
  rewrite E. split; [exact Hc2|]. destruct Hla as [(_ & ->)|(pre & ->)]; [right; reflexivity|left].
  rewrite (epl_consec_length_fst _ _ _ Hc1), app_length. cbn [length]. lia.
Qed.

Lemma epl_current_packet_handled : forall S R sent cs now start bytes acked,
  epl_inv S R sent -> epl_compat S R cs ->
  epl_packet_is R sent start bytes acked (u_pending_output S) [] (snd (u_last_acked S)) ->
  exists R1,
    handle_message dbg now 0 (mkMsg (u_magic S) (Input cs false start (last_recv_frame S) bytes)) R = Ok R1 /\
    epl_inv S R1 sent /\ epl_compat S R1 cs /\
    u_send_queue R1 = u_send_queue R ++ [mkMsg (u_magic R) (InputAck (last_recv_frame R1))] /\
    (last_recv_frame R1 = f0 + Z.of_nat (length sent) - 1 \/
     (last_recv_frame R1 = last_recv_frame R /\ start <= last_recv_frame R /\
      alookup (start - 1) (u_recv_inputs R) = None)).
Proof.
  intros S R sent cs now start bytes acked HI (Cm1 & Cm2 & Ccs) Pis.
  pose proof HI as (H0 & Hn1 & Hn2 & Hsent & HS & HR & H3 & M1 & M2).
  set (P := mkMsg (u_magic S) (Input cs false start (last_recv_frame S) bytes)).
  assert (Pacc : epl_accepts R P cs) by (split; [apply epl_passes_running; [apply HR|exact Cm1]|exact Ccs]).
  destruct (epl_handle_good_packet R sent P cs start (last_recv_frame S) bytes now 0 acked (u_pending_output S) [] _
              H0 Hn1 Hn2 Hsent HR eq_refl Pis Pacc) as (R1 & EH & Hcase).
  assert (Pok : epl_packet_ok R sent P) by (apply (epl_packet_ok_is R sent P _ _ _ _ _ eq_refl); eauto).
  destruct (epl_receive_packet R sent P cs false start _ bytes now 0 R1 H0 Hn2 Hsent HR eq_refl Pok EH)
    as (HR1 & Hmono & _).
  pose proof (eps_input_exits dbg now 0 P cs false start _ bytes R R1 eq_refl EH) as Hexit.
  destruct (epl_input_exit_static _ _ _ _ _ _ _ _ _ Hexit) as (_ & Enp & _ & _ & Emg & Erm).
  assert (Esq : u_send_queue R1 = u_send_queue R ++ [mkMsg (u_magic R) (InputAck (last_recv_frame R1))]).
  { destruct Hcase as [(_ & _ & Eri & Esq)|(_ & Esq)]; [rewrite (eps_last_recv_frame_ext _ _ Eri)|]; exact Esq. }
  exists R1. split; [exact EH|]. split.
  { apply (epl_inv_R_moves S R R1 sent HI HR1 Hmono). eapply epl_app_one; [exact Esq|].
    unfold epl_ack_ok. cbn [m_body]. apply epl_lrf_value_ok. exact HR1. }
  split; [unfold epl_compat; rewrite Erm, Emg, Enp; auto|]. split; [exact Esq|].
  destruct Hcase as [(Hnone & Hrange & Eri & _)|(Elrf & _)].
  - right. split; [apply eps_last_recv_frame_ext; exact Eri|]. split; [lia|exact Hnone].
  - left. destruct (epl_receiver_keeps_last S R sent HI) as (_ & _ & X & _).
    destruct Pis as (Es & Hne & _ & Hst & _). rewrite Elrf.
    assert ((length (u_pending_output S) <> 0)%nat) by (destruct (u_pending_output S); [congruence|discriminate]).
    rewrite Es, !app_length in *. cbn [length] in *. unfold ibytes in *. lia.
Qed.

(* R's answer acknowledges r = last_recv_frame(R1), whether it decoded the packet or found it stale; S then pops up
   to r and its next packet is encoded against frame r - the one entry R always keeps (epl_receiver_keeps_last).
   So the second packet cannot be stale, and decoding it brings R to the newest frame. *)
Theorem epl_exchange_reaches_newest : forall S R sent cs t1 t2 t3,
  epl_inv S R sent -> epl_compat S R cs -> u_pending_output S <> [] ->
  exists S1 R2, epl_exchange t1 t2 t3 cs S R = Ok (S1, R2) /\
    last_recv_frame R2 = f0 + Z.of_nat (length sent) - 1.
Proof.
  intros S R sent cs t1 t2 t3 HI Hcompat Hpo.
  pose proof HI as (H0 & _ & _ & Hsent & HS & _ & H3 & _).
  unfold epl_exchange.
  destruct (epl_packet cs S) as [P|] eqn:EP.
  2:{ unfold epl_packet in EP. destruct (u_pending_output S) as [|[f x] q]; [congruence|discriminate]. }
  destruct (epl_current_packet_is cs S R sent P Hsent HS H3 EP) as (start & bytes & acked & -> & Es & Pis).
  destruct (epl_current_packet_handled S R sent cs t1 start bytes acked HI Hcompat Pis)
    as (R1 & -> & HI1 & Hcompat1 & Esq & Hr).
  unfold epl_reply. rewrite Esq, nth_error_app2, Nat.sub_diag by lia. cbn [nth_error].
  set (r := last_recv_frame R1) in *.
  assert (Hstart : start = f0 + Z.of_nat (length sent) - Z.of_nat (length (u_pending_output S)))
    by (destruct Pis as (_ & _ & _ & -> & _); rewrite Es, app_length; unfold ibytes in *; lia).
  assert (Hs0 : f0 <= start) by (destruct Pis as (_ & _ & _ & -> & _); lia).
  assert (Hge : start <= r).
  { destruct Hr as [->|(-> & Hle & _)]; [|exact Hle].
    assert ((length (u_pending_output S) <> 0)%nat) by (destruct (u_pending_output S); [congruence|discriminate]). lia. }
  destruct (epl_handle_ack dbg t2 0 S r (u_magic R)) as (S1 & ES1 & Epop & Est1 & Emg1 & Erm1 & _).
  { apply epl_passes_running; [apply HS|apply Hcompat]. }
  rewrite ES1.
  assert (HI2 : epl_inv S1 R1 sent).
  { apply (epl_inv_step S R1 sent S1 R1 sent HI1). eapply (epl_step_deliver_rs S R1 sent t2 0 _ S1 []).
    - rewrite Esq. apply in_app_iff. right. left. reflexivity.
    - apply epl_step_message. exact ES1. }
  pose proof HI2 as (_ & _ & _ & _ & HS1 & _ & H31 & _).
  assert (Ela1 : fst (u_last_acked S1) = r).
  { destruct (epl_receiver_keeps_last S R1 sent HI1) as (br & _ & _ & Hin). fold r in Hin.
    assert (Hr2 : r = NULL \/ exists b, In (r, b) sent) by (destruct Hin; eauto).
    destruct (epl_sender_pop S S1 sent r Hsent HS Hr2 H0 (eq_trans Est1 (proj1 HS)) Epop) as (_ & [(_ & Hlt)|B]); [lia|exact B]. }
  destruct (epl_sender_frames S1 sent Hsent HS1) as (_ & Hf1). rewrite Ela1 in Hf1.
  assert (F1 : f0 + Z.of_nat (length sent) - Z.of_nat (length (u_pending_output S1)) = r + 1)
    by (destruct Hf1; unfold NULL in *; lia).
  destruct (epl_packet cs S1) as [P'|] eqn:EP'.
  2:{ unfold epl_packet in EP'. destruct (u_pending_output S1) as [|[f x] q]; [|discriminate].
      exists S1, R1. split; [reflexivity|]. cbn [length] in F1. fold r. lia. }
  destruct (epl_current_packet_is cs S1 R1 sent P' Hsent HS1 H31 EP') as (start' & bytes' & acked' & -> & Es' & Pis').
  assert (Hcompat2 : epl_compat S1 R1 cs) by (unfold epl_compat in *; rewrite Emg1, Erm1; exact Hcompat1).
  assert (Est' : start' = r + 1)
    by (destruct Pis' as (_ & _ & _ & -> & _); rewrite Es', app_length in F1; unfold ibytes in *; lia).
  destruct (epl_current_packet_handled S1 R1 sent cs t3 start' bytes' acked' HI2 Hcompat2 Pis')
    as (R2 & -> & _ & _ & _ & [Hn|(_ & _ & Hnone)]).
  - exists S1, R2. split; [reflexivity|exact Hn].
  - exfalso. destruct (epl_receiver_keeps_last S1 R1 sent HI2) as (b & Hb & _). fold r in Hb.
    rewrite Est' in Hnone. replace (r + 1 - 1) with r in Hnone by lia. congruence.
Qed.

Lemma epl_retry_fires : forall now nonce cs S out S' P,
  u_state S = PRunning -> u_last_input_recv S + RUNNING_RETRY_INTERVAL < now ->
  poll now nonce cs S = Ok (out, S') -> epl_packet cs S = Some P ->
  In P (u_send_queue S') /\ epl_packet cs S' = Some P.
Proof.
  intros now nonce cs S out S' P Hr Hdue H EP.
  destruct (epl_poll_at_running _ _ _ _ _ _ H Hr) as (t & bs & i & r & Et & _ & -> & Eq).
  destruct (epl_poll_running_sends _ _ _ _ Et) as (q & _ & E).
  assert ((u_last_input_recv S + RUNNING_RETRY_INTERVAL <? now) = true) as E0 by lia. rewrite E0, EP in E.
  split.
  - cbn [u_send_queue set_event_queue]. rewrite E. apply in_app_iff. left. apply in_app_iff. right. left. reflexivity.
  - rewrite <- EP, Eq. reflexivity.
Qed.

Lemma epl_inv_initial : forall S R,
  0 <= f0 -> (1 <= nh)%nat -> 4 * Z.of_nat nh <= 65535 -> f0 - 1 <= TS_I32_MAX ->
  u_state S = PRunning -> u_pending_output S = [] -> u_last_acked S = (NULL, epl_zeros nh) ->
  u_state R = PRunning -> eps_inv R -> eps_window_ok R -> length (u_handles R) = nh ->
  u_recv_inputs R = [(NULL, epl_zeros nh)] ->
  Forall (fun m => epl_plain (m_body m) = true) (u_send_queue S) ->
  Forall (fun m => epl_plain (m_body m) = true) (u_send_queue R) ->
  epl_inv S R [].
Proof.
  intros S R H0 Hn1 Hn2 Hm Srun Spo Sla Rrun Rinv Rw Rh Rri FS FR.
  split; [exact H0|]. split; [exact Hn1|]. split; [exact Hn2|]. split.
  { split; [exact I|]. split; [constructor|]. cbn [length]. lia. }
  split. { split; [exact Srun|]. rewrite Spo. split; [cbn; lia|]. exists []. split; [reflexivity|]. left. auto. }
  split. { split; [exact Rrun|]. split; [exact Rinv|]. split; [exact Rw|]. split; [exact Rh|].
           rewrite Rri. intros k b [X|[]]. inversion X; subst. left. auto. }
  split. { rewrite Sla, eps_lrf_eq, Rri. cbn. lia. }
  split; (eapply Forall_impl; [|eassumption]); intros m Hp; apply epl_plain_packet_ok; exact Hp.
Qed.

End Link.

Lemma epl_sync_request_answered : forall dbg now nonce B mg n,
  passes_filters B (mkMsg mg (SyncRequest n)) = true ->
  exists B', handle_message dbg now nonce (mkMsg mg (SyncRequest n)) B = Ok B' /\
    u_send_queue B' = u_send_queue B ++ [mkMsg (u_magic B) (SyncReply n)] /\
    u_state B' = u_state B /\ u_magic B' = u_magic B /\ u_remote_magic B' = u_remote_magic B.
Proof.
  intros dbg now nonce B mg n Hp. rewrite eps_handle_unfold, Hp. cbn [negb m_body]. cbv zeta.
  eexists. split; [reflexivity|]. rewrite eps_touch_nf. fs. auto.
Qed.

Lemma epl_sync_request_passes : forall B mg n,
  u_state B <> PShutdown -> (u_remote_magic B = 0 \/ u_remote_magic B = mg) ->
  passes_filters B (mkMsg mg (SyncRequest n)) = true.
Proof.
  intros B mg n Hs Hm. unfold passes_filters. cbn [m_magic m_body is_handshake negb]. rewrite andb_false_r.
  assert (pstate_eqb (u_state B) PShutdown = false) as -> by (destruct (u_state B); try reflexivity; congruence).
  destruct Hm as [-> | ->]; [reflexivity|]. rewrite Z.eqb_refl. cbn [negb]. rewrite andb_false_r. reflexivity.
Qed.

Lemma epl_sync_reply_matched : forall dbg now nonce A mg n,
  u_state A = PSynchronizing -> u_remote_magic A = 0 -> zmem n (u_sync_requests A) = true ->
  1 <= u_sync_remaining A <= NUM_SYNC_PACKETS ->
  exists A', handle_message dbg now nonce (mkMsg mg (SyncReply n)) A = Ok A' /\
    match_of A (OMessage now nonce (mkMsg mg (SyncReply n))) = [(n, mg)] /\
    u_sync_remaining A' = u_sync_remaining A - 1 /\ u_magic A' = u_magic A /\
    ((1 < u_sync_remaining A /\ u_state A' = PSynchronizing /\ u_remote_magic A' = 0 /\
      zmem nonce (u_sync_requests A') = true /\
      In (mkMsg (u_magic A) (SyncRequest nonce)) (u_send_queue A')) \/
     (u_sync_remaining A = 1 /\ u_state A' = PRunning /\ u_remote_magic A' = mg)).
Proof.
  intros dbg now nonce A mg n Hs Hm Hz Hr.
  assert (Hp : passes_filters A (mkMsg mg (SyncReply n)) = true).
  { unfold passes_filters. rewrite Hs, Hm. reflexivity. }
  assert (Hmo : match_of A (OMessage now nonce (mkMsg mg (SyncReply n))) = [(n, mg)]).
  { unfold match_of. cbn [m_body m_magic]. rewrite Hp, Hs, Hz. reflexivity. }
  rewrite eps_handle_unfold, Hp, eps_touch_nf. cbn [negb m_body m_magic]. cbv zeta.
  unfold on_sync_reply. fs. rewrite Hs, Hz. cbn [pstate_eqb negb].
  assert ((u_sync_remaining A <=? 0) = false) as -> by lia. cbn [andb].
  assert ((u_sync_remaining A - 1) mod 4294967296 = u_sync_remaining A - 1) as ->
    by (apply Z.mod_small; unfold NUM_SYNC_PACKETS in *; lia).
  destruct (0 <? u_sync_remaining A - 1) eqn:Epos.
  - assert ((NUM_SYNC_PACKETS <? u_sync_remaining A - 1) = false) as -> by lia. cbn [andb].
    eexists. split; [reflexivity|]. split; [exact Hmo|]. fs. split; [reflexivity|]. split; [reflexivity|].
    left. split; [lia|]. split; [exact Hs|]. split; [exact Hm|]. split.
    + rewrite zmem_zinsert, Z.eqb_refl. reflexivity.
    + apply in_app_iff. right. left. reflexivity.
  - eexists. split; [reflexivity|]. split; [exact Hmo|]. fs. split; [reflexivity|]. split; [reflexivity|].
    right. split; [lia|]. auto.
Qed.

(* [fresh] is the nonce of A's next request; B draws none for a SyncRequest, hence its 0 *)
Definition epl_round_trip (dbg : bool) (t fresh n : Z) (A B : ep) : res (ep * ep) :=
  match handle_message dbg t 0 (mkMsg (u_magic A) (SyncRequest n)) B with
  | Ok B' =>
    match handle_message dbg t fresh (mkMsg (u_magic B) (SyncReply n)) A with
    | Ok A' => Ok (A', B')
    | Err => Err
    | Panic => Panic
    end
  | Err => Err
  | Panic => Panic
  end.

Definition epl_answers (A B : ep) : Prop :=
  u_state B <> PShutdown /\ (u_remote_magic B = 0 \/ u_remote_magic B = u_magic A).

Theorem epl_round_trip_progress : forall dbg t fresh n A B,
  u_state A = PSynchronizing -> u_remote_magic A = 0 -> zmem n (u_sync_requests A) = true ->
  1 <= u_sync_remaining A <= NUM_SYNC_PACKETS -> epl_answers A B ->
  exists A' B', epl_round_trip dbg t fresh n A B = Ok (A', B') /\
    In (mkMsg (u_magic B) (SyncReply n)) (u_send_queue B') /\
    match_of A (OMessage t fresh (mkMsg (u_magic B) (SyncReply n))) = [(n, u_magic B)] /\
    u_sync_remaining A' = u_sync_remaining A - 1 /\ u_magic A' = u_magic A /\ u_magic B' = u_magic B /\
    epl_answers A' B' /\
    ((1 < u_sync_remaining A /\ u_state A' = PSynchronizing /\ u_remote_magic A' = 0 /\
      zmem fresh (u_sync_requests A') = true) \/
     (u_sync_remaining A = 1 /\ u_state A' = PRunning /\ u_remote_magic A' = u_magic B)).
Proof.
  intros dbg t fresh n A B Hs Hm Hz Hr (Hb1 & Hb2). unfold epl_round_trip.
  destruct (epl_sync_request_answered dbg t 0 B (u_magic A) n (epl_sync_request_passes B _ n Hb1 Hb2))
    as (B' & -> & Q & S1 & M1 & RM1).
  destruct (epl_sync_reply_matched dbg t fresh A (u_magic B) n Hs Hm Hz Hr) as (A' & -> & Mo & Rem & Mg & Hcase).
  exists A', B'. split; [reflexivity|]. split; [rewrite Q; apply in_app_iff; right; left; reflexivity|].
  split; [exact Mo|]. split; [exact Rem|]. split; [exact Mg|]. split; [exact M1|].
  split; [unfold epl_answers; rewrite S1, RM1, Mg; auto|].
  destruct Hcase as [(C1 & C2 & C3 & C4 & _)|C]; [left; auto|right; exact C].
Qed.

(* mind the order: the outstanding nonce [n] comes before the list of fresh ones here, after the fresh one in
   [epl_round_trip] *)
Fixpoint epl_round_trips (dbg : bool) (t : Z) (n : Z) (fresh : list Z) (A B : ep) : res (ep * ep) :=
  match fresh with
  | [] => Ok (A, B)
  | f :: r =>
    match epl_round_trip dbg t f n A B with
    | Ok (A', B') => epl_round_trips dbg t f r A' B'
    | Err => Err
    | Panic => Panic
    end
  end.

Theorem epl_handshake_completes : forall dbg t fresh n A B,
  u_state A = PSynchronizing -> u_remote_magic A = 0 -> zmem n (u_sync_requests A) = true ->
  1 <= u_sync_remaining A <= NUM_SYNC_PACKETS -> epl_answers A B ->
  Z.of_nat (length fresh) = u_sync_remaining A ->
  exists A' B', epl_round_trips dbg t n fresh A B = Ok (A', B') /\
    u_state A' = PRunning /\ u_remote_magic A' = u_magic B /\ u_sync_remaining A' = 0.
Proof.
  intros dbg t fresh. induction fresh as [|f r IH]; intros n A B Hs Hm Hz Hr Hb Hl; [cbn [length] in Hl; lia|].
  cbn [epl_round_trips].
  destruct (epl_round_trip_progress dbg t f n A B Hs Hm Hz Hr Hb) as (A' & B' & -> & _ & _ & Rem & MgA & MgB & Hb' & Hcase).
  destruct Hcase as [(C1 & C2 & C3 & C4)|(C1 & C2 & C3)].
  - destruct (IH f A' B' C2 C3 C4) as (A2 & B2 & E & X1 & X2 & X3); [lia|exact Hb'|cbn [length] in Hl; lia|].
    exists A2, B2. split; [exact E|]. split; [exact X1|]. split; [congruence|exact X3].
  - assert (r = []) by (destruct r; [reflexivity|cbn [length] in Hl; lia]). subst r. cbn [epl_round_trips].
    exists A', B'. split; [reflexivity|]. split; [exact C2|]. split; [exact C3|lia].
Qed.

Lemma epl_matches_app : forall dbg a b s s1 e1,
  run dbg s a = Ok (s1, e1) -> matches dbg s (a ++ b) = matches dbg s a ++ matches dbg s1 b.
Proof.
  induction a as [|o a IH]; intros b s s1 e1 H; cbn [app matches].
  - inversion H; subst. reflexivity.
  - apply run_cons in H. destruct H as (s2 & e2 & e3 & H1 & H2 & _). rewrite H1.
    rewrite (IH b _ _ _ H2), app_assoc. reflexivity.
Qed.

Lemma epl_matched_monotone : forall dbg a b s, matched dbg s a <= matched dbg s (a ++ b).
Proof.
  intros dbg a b s. unfold matched.
  assert (H : exists x, matches dbg s (a ++ b) = matches dbg s a ++ x).
  { revert s. induction a as [|o a IH]; intro s; cbn [app matches]; [eexists; reflexivity|].
    destruct (step dbg o s) as [[s1 e1]| |].
    - destruct (IH s1) as (x & ->). exists x. rewrite app_assoc. reflexivity.
    - exists []. rewrite !app_nil_r. reflexivity.
    - exists []. rewrite !app_nil_r. reflexivity. }
  destruct H as (x & ->). rewrite app_length. lia.
Qed.

Lemma epl_matched_synchronizing : forall now0 magic handles np lp mp timeout notify fps desync dbg ops A evs,
  let s0 := ep_new now0 magic handles np lp mp timeout notify fps desync in
  run dbg s0 ops = Ok (A, evs) -> u_state A = PSynchronizing ->
  matched dbg s0 ops = NUM_SYNC_PACKETS - u_sync_remaining A /\
  1 <= u_sync_remaining A <= NUM_SYNC_PACKETS /\ u_remote_magic A = 0 /\
  forall t fresh mg n, zmem n (u_sync_requests A) = true ->
    matched dbg s0 (ops ++ [OMessage t fresh (mkMsg mg (SyncReply n))]) = matched dbg s0 ops + 1.
Proof.
  intros now0 magic handles np lp mp timeout notify fps desync dbg ops A evs s0 H Hs.
  pose proof (reach_inv1 now0 magic handles np lp mp timeout notify fps desync dbg ops A evs H) as (_ & (HA & HB & HC & HD) & Hst).
  unfold st_facts in Hst. cbv zeta in Hst. rewrite Hs in Hst. destruct Hst as (_ & M & R & _).
  fold s0 in M, HC. unfold matched.
  assert (Hm0 : u_remote_magic A = 0) by (apply HC; lia).
  split; [exact M|]. split; [exact R|]. split; [exact Hm0|].
  intros t fresh mg n Hz. rewrite (epl_matches_app dbg ops _ s0 A evs H). cbn [matches].
  assert (match_of A (OMessage t fresh (mkMsg mg (SyncReply n))) = [(n, mg)]) as ->.
  { unfold match_of. cbn [m_body m_magic]. unfold passes_filters. rewrite Hs, Hm0, Hz. reflexivity. }
  rewrite !app_length. cbn [length app].
  destruct (step dbg _ A) as [[? ?]| |]; cbn [length app]; lia.
Qed.

(* on_input before b2421d6: retain(k >= last_recv_frame - 2 * max_prediction), and a packet whose base frame is
   missing is dropped silently *)
Definition epl_on_input_old (dbg : bool) (now : Z) (st : list status) (disc_req : bool) (start ack : Z)
                            (bytes : list N) (s : ep) : res ep :=
  if negb disc_req && negb (Z.of_nat (length st) =? u_num_players s) then Ok s
  else if start <? 0 then Ok s
  else
    match eps_header st disc_req ack s with
    | Ok s2 =>
      let decode_frame := if last_recv_frame s2 =? NULL then NULL else start - 1 in
      match alookup decode_frame (u_recv_inputs s2) with
      | Some ref =>
        let s3 := set_last_input_recv now s2 in
        match Codec.decode dbg ref bytes with
        | Ok inputs =>
          match accept_inputs dbg start 0 inputs s3 with
          | Ok (true, s4) =>
            let s5 := send_input_ack now s4 in
            let lrf := last_recv_frame s5 in
            match ts_i32_arith dbg (2 * ts_wrap_i32 (u_max_prediction s5)) with
            | Ok w =>
              match ts_i32_arith dbg (lrf - w) with
              | Ok lo => Ok (set_recv_inputs (aretain_ge lo (u_recv_inputs s5)) s5)
              | Err => Err
              | Panic => Panic
              end
            | Err => Err
            | Panic => Panic
            end
          | Ok (false, s4) => Ok s4
          | Err => Err
          | Panic => Panic
          end
        | Err => Ok s3
        | Panic => Panic
        end
      | None => Ok s2
      end
    | Err => Err
    | Panic => Panic
    end.

Definition epl_handle_message_old (dbg : bool) (now nonce : Z) (m : message) (s : ep) : res ep :=
  match m_body m with
  | Input st dr sf af bytes =>
    if negb (passes_filters s m) then Ok s else epl_on_input_old dbg now st dr sf af bytes (eps_touch now s)
  | _ => handle_message dbg now nonce m s
  end.

(* the current on_input in the same shape: it differs from [epl_on_input_old] in the pruning threshold
   (Z.min lo (start - 1) inside eps_body, against lo) and in the answer to a missing base frame (an InputAck if the
   packet is not ahead, against nothing).  That the two behave differently is shown on the history below; nothing
   relates them in general. *)
Lemma epl_on_input_current : forall dbg now st dr start ack bytes s,
  on_input dbg now st dr start ack bytes s =
  if negb dr && negb (Z.of_nat (length st) =? u_num_players s) then Ok s
  else if start <? 0 then Ok s
  else match eps_header st dr ack s with Ok s2 => eps_body dbg now start bytes s2 | Err => Err | Panic => Panic end.
Proof. exact eps_on_input_unfold. Qed.

(* the history: window 0, S = (local player 0), R = (receives player 0); both Running after the handshake *)
Definition epl_w_newR : ep := ep_new 0 7 [0] 2 1 0 2000 500 60 None.
Definition epl_w_handshakeR : list op :=
  [OSynchronize 0 100;
   OMessage 0 101 (mkMsg 9 (SyncReply 100)); OMessage 0 102 (mkMsg 9 (SyncReply 101));
   OMessage 0 103 (mkMsg 9 (SyncReply 102)); OMessage 0 104 (mkMsg 9 (SyncReply 103));
   OMessage 0 105 (mkMsg 9 (SyncReply 104))].

Definition epl_is_input_msg (m : message) : bool := match m_body m with Input _ _ _ _ _ => true | _ => false end.
Definition epl_newest_packet (s : ep) : option message :=
  last (map Some (filter epl_is_input_msg (u_send_queue s))) None.

(* (S: last_acked frame, |pending_output|, number of Input packets sent so far;
    R: last_recv_frame, |recv_inputs|, |send_queue|) *)
Definition epl_obs (S R : ep) : Z * nat * nat * Z * nat * nat :=
  (fst (u_last_acked S), length (u_pending_output S), length (filter epl_is_input_msg (u_send_queue S)),
   last_recv_frame R, length (u_recv_inputs R), length (u_send_queue R)).

(* S sends frame 0; R handles it (its InputAck is lost); S sends frame 1; R handles that packet; S's retry timer
   fires twice (polls at 300 and 600) and R handles each retransmission.  [h] is R's packet handler. *)
Definition epl_wedge_history (h : Z -> message -> ep -> res ep) : res (list (Z * nat * nat * Z * nat * nat)) :=
  res_bind (run true eps_w_new0 w_handshake) (fun x0 => let S0 := fst x0 in
  res_bind (run true epl_w_newR epl_w_handshakeR) (fun y0 => let R0 := fst y0 in
  res_bind (step true (OSendInput 10 [(0, (0, 5))] w_status) S0) (fun x1 => let S1 := fst x1 in
  match epl_newest_packet S1 with None => Err | Some P0 =>
  res_bind (h 11 P0 R0) (fun R1 =>
  res_bind (step true (OSendInput 20 [(0, (1, 6))] w_status) S1) (fun x2 => let S2 := fst x2 in
  match epl_newest_packet S2 with None => Err | Some P1 =>
  res_bind (h 21 P1 R1) (fun R2 =>
  res_bind (step true (OPoll 300 0 w_status) S2) (fun x3 => let S3 := fst x3 in
  match epl_newest_packet S3 with None => Err | Some P2 =>
  res_bind (h 301 P2 R2) (fun R3 =>
  res_bind (step true (OPoll 600 0 w_status) S3) (fun x4 => let S4 := fst x4 in
  match epl_newest_packet S4 with None => Err | Some P3 =>
  res_bind (h 601 P3 R3) (fun R4 =>
  Ok [epl_obs S0 R0; epl_obs S1 R1; epl_obs S2 R2; epl_obs S3 R3; epl_obs S4 R4])
  end)) end)) end)) end))).

(* non-vacuity: a link in which the re-acknowledgement is what un-wedges R.  Window 0, first frame 2 (input
   delay 2).  S sends frame 2, R decodes it against the blank entry -1 and prunes that entry (threshold
   min(2 - 0, 2 - 1) = 1); R's InputAck is lost; S sends frame 3: its packet still starts at frame 2 and is encoded
   against the blank input, which R no longer keeps (and never keeps a frame 1) *)
Definition epl_x_S0 : ep := match run true eps_w_new0 w_handshake with Ok (s, _) => s | _ => eps_w_new0 end.
Definition epl_x_R0 : ep := match run true epl_w_newR epl_w_handshakeR with Ok (s, _) => s | _ => epl_w_newR end.
Definition epl_x_step (o : op) (s : ep) : ep := match step true o s with Ok (s', _) => s' | _ => s end.
Definition epl_x_S1 : ep := epl_x_step (OSendInput 10 [(0, (2, 5))] w_status) epl_x_S0.
Definition epl_x_P0 : message := match epl_newest_packet epl_x_S1 with Some m => m | None => mkMsg 0 KeepAlive end.
Definition epl_x_R1 : ep := epl_x_step (OMessage 11 0 epl_x_P0) epl_x_R0.
Definition epl_x_S2 : ep := epl_x_step (OSendInput 20 [(0, (3, 6))] w_status) epl_x_S1.
Definition epl_x_sent : list ibytes := [(2, [5;0;0;0]%N); (3, [6;0;0;0]%N)].

(* Evaluation is asked only for booleans and small values: that a run succeeds is a boolean, and the state it
   returns is named by the run itself, so that no proof stores an evaluated state. *)
Definition epl_x_ok {A : Type} (r : res A) : bool := match r with Ok _ => true | _ => false end.
Definition epl_x_get {A : Type} (d : A) (r : res A) : A := match r with Ok a => a | _ => d end.

Lemma epl_x_get_ok : forall {A : Type} (d : A) r, epl_x_ok r = true -> r = Ok (epl_x_get d r).
Proof. intros A d [a| |] H; try discriminate. reflexivity. Qed.

Lemma epl_x_step_ok : forall o s, epl_x_ok (step true o s) = true ->
  step true o s = Ok (epl_x_step o s, snd (epl_x_get (s, []) (step true o s))).
Proof. intros o s H. unfold epl_x_step. destruct (step true o s) as [[s' out]| |]; try discriminate. reflexivity. Qed.

Lemma epl_x_step1 : epl_step true 1 2 (epl_x_S0, epl_x_R0, []) (epl_x_S1, epl_x_R0, [(2, [5;0;0;0]%N)]).
Proof.
  eapply (epl_step_send true 1 2 epl_x_S0 epl_x_R0 [] 10 [(0, (2, 5))] w_status epl_x_S1 _ [5;0;0;0]%N);
    [vm_compute; reflexivity|reflexivity|vm_compute; discriminate|vm_compute; lia
    |apply epl_x_step_ok; vm_compute; reflexivity].
Qed.
Lemma epl_x_step2 : epl_step true 1 2 (epl_x_S1, epl_x_R0, [(2, [5;0;0;0]%N)]) (epl_x_S1, epl_x_R1, [(2, [5;0;0;0]%N)]).
Proof.
  eapply (epl_step_deliver_sr true 1 2 epl_x_S1 epl_x_R0 _ 11 0 epl_x_P0 epl_x_R1 _);
    [vm_compute; auto 10|apply epl_x_step_ok; vm_compute; reflexivity].
Qed.
Lemma epl_x_step3 : epl_step true 1 2 (epl_x_S1, epl_x_R1, [(2, [5;0;0;0]%N)]) (epl_x_S2, epl_x_R1, epl_x_sent).
Proof.
  eapply (epl_step_send true 1 2 epl_x_S1 epl_x_R1 [(2, [5;0;0;0]%N)] 20 [(0, (3, 6))] w_status epl_x_S2 _ [6;0;0;0]%N);
    [vm_compute; reflexivity|reflexivity|vm_compute; discriminate|vm_compute; lia
    |apply epl_x_step_ok; vm_compute; reflexivity].
Qed.
Lemma epl_x_init : epl_inv 1 2 epl_x_S0 epl_x_R0 [].
Proof.
  apply epl_inv_initial.
  - lia.
  - lia.
  - lia.
  - unfold TS_I32_MAX. lia.
  - vm_compute. reflexivity.
  - vm_compute. reflexivity.
  - vm_compute. reflexivity.
  - vm_compute. reflexivity.
  - unfold epl_x_R0. destruct (run true epl_w_newR epl_w_handshakeR) as [[s e]| |] eqn:E; try apply eps_inv_new.
    exact (eps_inv_run _ _ _ _ _ (eps_inv_new _ _ _ _ _ _ _ _ _ _) E).
  - vm_compute. split; discriminate.
  - vm_compute. reflexivity.
  - vm_compute. reflexivity.
  - vm_compute. repeat constructor.
  - vm_compute. repeat constructor.
Qed.
Lemma epl_x_inv : epl_inv 1 2 epl_x_S2 epl_x_R1 epl_x_sent.
Proof.
  apply (epl_inv_step true 1 2 epl_x_S1 epl_x_R1 [(2, [5;0;0;0]%N)] _ _ _); [|exact epl_x_step3].
  apply (epl_inv_step true 1 2 epl_x_S1 epl_x_R0 [(2, [5;0;0;0]%N)] _ _ _); [|exact epl_x_step2].
  apply (epl_inv_step true 1 2 epl_x_S0 epl_x_R0 [] _ _ _); [exact epl_x_init|exact epl_x_step1].
Qed.

Example epl_link_example :
  epl_inv 1 2 epl_x_S2 epl_x_R1 epl_x_sent /\ epl_compat epl_x_S2 epl_x_R1 w_status /\
  u_pending_output epl_x_S2 <> [] /\
  last_recv_frame epl_x_R1 = 2 /\ alookup 1 (u_recv_inputs epl_x_R1) = None /\
  alookup (-1) (u_recv_inputs epl_x_R1) = None /\ fst (u_last_acked epl_x_S2) = NULL /\
  exists S' R', epl_exchange true 300 301 302 w_status epl_x_S2 epl_x_R1 = Ok (S', R') /\
    last_recv_frame R' = 3 /\ fst (u_last_acked S') = 2.
Proof.
  split; [exact epl_x_inv|].
  split. { unfold epl_compat. split; [right; vm_compute; reflexivity|]. split; [right; vm_compute; reflexivity|vm_compute; reflexivity]. }
  split; [vm_compute; discriminate|].
  split; [vm_compute; reflexivity|]. split; [vm_compute; reflexivity|]. split; [vm_compute; reflexivity|].
  split; [vm_compute; reflexivity|].
  set (x := epl_x_get (epl_x_S2, epl_x_R1) (epl_exchange true 300 301 302 w_status epl_x_S2 epl_x_R1)).
  exists (fst x), (snd x). rewrite <- surjective_pairing.
  split; [apply epl_x_get_ok; vm_compute; reflexivity|]. split; vm_compute; reflexivity.
Qed.

(* non-vacuity of the handshake's progress: a freshly synchronizing endpoint (request 100 outstanding) and a peer
   that has not even started its own handshake: five fault-free round trips *)
Example epl_handshake_example :
  exists A evs A' B', run true w_new [OSynchronize 0 100] = Ok (A, evs) /\
    u_state A = PSynchronizing /\ u_remote_magic A = 0 /\ zmem 100 (u_sync_requests A) = true /\
    u_sync_remaining A = 5 /\ epl_answers A epl_w_newR /\
    epl_round_trips true 1 100 [101; 102; 103; 104; 105] A epl_w_newR = Ok (A', B') /\
    u_state A' = PRunning /\ u_remote_magic A' = 7.
Proof.
  set (a := epl_x_get (w_new, []) (run true w_new [OSynchronize 0 100])).
  set (x := epl_x_get (w_new, w_new) (epl_round_trips true 1 100 [101; 102; 103; 104; 105] (fst a) epl_w_newR)).
  exists (fst a), (snd a), (fst x), (snd x). rewrite <- !surjective_pairing.
  split; [apply epl_x_get_ok; vm_compute; reflexivity|].
  repeat (split; [vm_compute; reflexivity|]).
  split. { split; [vm_compute; discriminate|left; vm_compute; reflexivity]. }
  split; [apply epl_x_get_ok; vm_compute; reflexivity|]. split; vm_compute; reflexivity.
Qed.
