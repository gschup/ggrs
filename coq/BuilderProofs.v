(* Proofs about the SessionBuilder model: the model accepts exactly the call sequences the reference
   predicate of BuilderSpec.v allows, fails at the first call the predicate rejects, never reaches
   the assertion in P2PSession::new, and accepted P2P configurations have the documented shape. *)
From GGRS Require Import Base Consts Builder BuilderSpec.
From Coq Require Import Permutation Sorted FinFun.
From GGRS Require Import LiaSetup.
Open Scope Z_scope.

Ltac bsimpl :=
  cbn [b_num_players b_local_players b_max_prediction b_fps b_sparse b_desync b_disconnect_timeout
       b_notify b_handles b_input_delay b_check_dist b_max_frames_behind b_catchup_speed
       set_num_players set_players set_max_prediction set_fps set_sparse set_desync
       set_disconnect_timeout set_notify set_input_delay set_check_dist set_max_frames_behind
       set_catchup_speed new_builder fst snd] in *.

Lemma last_set_snoc : forall (A : Type) (sel : call -> option A) cs d c,
  last_set sel d (cs ++ [c]) = match sel c with Some v => v | None => last_set sel d cs end.
Proof.
  intros A sel cs. induction cs as [|x r IH]; intros d c; cbn [app last_set].
  - destruct (sel c); reflexivity.
  - apply IH.
Qed.

(* the invariant: the model state is what the documentation says the calls so far set *)

Record repr (pre : list call) (b : builder) : Prop := mkRepr {
  r_np : b_num_players b = np_of pre;
  r_np_pos : 1 <= b_num_players b;
  r_handles : forall h t, In (h, t) (b_handles b) <-> In (CAddPlayer t h) pre;
  r_nodup : NoDup (map fst (b_handles b));
  r_hok : forall h t, In (h, t) (b_handles b) -> handle_ok t h (b_num_players b);
  r_win : b_max_prediction b = window_of pre;
  r_cd : b_check_dist b = check_dist_of pre;
  r_sparse : b_sparse b = sparse_of pre;
  r_desync : b_desync b = desync_of pre;
  r_delay : b_input_delay b = delay_of pre }.

Lemma repr_new : 1 <= DEFAULT_PLAYERS -> repr [] new_builder.
Proof.
  intro Hd. constructor; bsimpl; try reflexivity; try assumption.
  - constructor.
  - intros h t [].
Qed.

Lemma contains_key_spec : forall h hs,
  contains_key h hs = true <-> exists t, In (h, t) hs.
Proof.
  intros h hs. unfold contains_key. rewrite existsb_exists. split.
  - intros [[h' t] [Hin Heq]]. cbn [fst] in Heq. assert (h' = h) by lia. subst. exists t; assumption.
  - intros [t Hin]. exists (h, t). split; [assumption | cbn [fst]; lia].
Qed.

Lemma validate_player_handle_spec : forall t h np, 0 <= h ->
  (validate_player_handle t h np = true <-> handle_ok t h np).
Proof. intros t h np Hh. destruct t; cbn [validate_player_handle handle_ok]; lia. Qed.

Lemma in_add_snoc_other : forall pre c t h,
  (forall t' h', c <> CAddPlayer t' h') ->
  (In (CAddPlayer t h) (pre ++ [c]) <-> In (CAddPlayer t h) pre).
Proof.
  intros pre c t h Hne. rewrite in_app_iff. split.
  - intros [H | [H | []]]; [assumption | exfalso; eapply Hne; exact H].
  - intro H; left; assumption.
Qed.

Ltac unfold_settings :=
  unfold np_of, window_of, check_dist_of, sparse_of, desync_of, delay_of.

(* repr after one more call: each setting is the one the call names or the one before, and the
   registered players are unchanged unless the call adds one; what add_player and with_num_players
   leave open (the players, the handle bounds) is closed by hand *)
Ltac repr_snoc Hr :=
  destruct Hr; constructor; bsimpl;
  try (unfold_settings; rewrite last_set_snoc; cbn beta iota; unfold_settings; solve [assumption | reflexivity | congruence]);
  try assumption;
  try (intros h0 t0; rewrite in_add_snoc_other by (intros; discriminate); auto).

Lemma nodup_snoc : forall (A : Type) (l : list A) x, NoDup l -> ~ In x l -> NoDup (l ++ [x]).
Proof.
  intros A l x Hl Hx. apply (Permutation_NoDup (Permutation_cons_append l x)). constructor; assumption.
Qed.

Lemma add_player_spec : forall pre b t h, repr pre b -> 0 <= h ->
  (exists b', add_player b t h = Ok b' /\ call_ok pre (CAddPlayer t h) /\ repr (pre ++ [CAddPlayer t h]) b') \/
  (add_player b t h = Err /\ ~ call_ok pre (CAddPlayer t h)).
Proof.
  intros pre b t h Hr Hu. cbn [call_ok]. unfold add_player.
  assert (Hkey : contains_key h (b_handles b) = true <-> exists t', In (CAddPlayer t' h) pre).
  { rewrite contains_key_spec. split; intros [t' Hin]; exists t'; apply (r_handles _ _ Hr); assumption. }
  destruct (contains_key h (b_handles b)).
  - right. split; [reflexivity|]. intros [_ Hfresh]. apply Hfresh, Hkey. reflexivity.
  - assert (Hfresh : ~ exists t', In (CAddPlayer t' h) pre) by (rewrite <- Hkey; discriminate).
    rewrite <- (r_np _ _ Hr). pose proof (validate_player_handle_spec t h (b_num_players b) Hu) as Hv.
    destruct (validate_player_handle t h (b_num_players b)); cbn [negb].
    + left. eexists. split; [reflexivity|]. apply proj1 in Hv. specialize (Hv eq_refl).
      split; [split; assumption|].
      repr_snoc Hr.
      * intros h0 t0. rewrite !in_app_iff, r_handles0. cbn [In].
        split; (intros [H | [H | []]]; [left; assumption | right; left; inversion H; reflexivity]).
      * rewrite map_app. apply nodup_snoc; [assumption|]. intro Hin.
        apply in_map_iff in Hin. destruct Hin as [[h' t'] [Heq Hin]]. cbn [fst] in Heq. subst h'.
        apply Hfresh. exists t'. apply r_handles0. assumption.
      * intros h0 t0. rewrite in_app_iff. intros [H | [H | []]]; [auto | inversion H; subst; assumption].
    + right. split; [reflexivity|]. intros [Hok _]. apply Hv in Hok. discriminate.
Qed.

(* the registered handles are validated again *)
Lemma with_num_players_spec : forall pre b n, repr pre b -> 0 <= n ->
  (exists b', with_num_players b n = Ok b' /\ call_ok pre (CNumPlayers n) /\ repr (pre ++ [CNumPlayers n]) b') \/
  (with_num_players b n = Err /\ ~ call_ok pre (CNumPlayers n)).
Proof.
  intros pre b n Hr Hu. cbn [call_ok]. unfold with_num_players.
  assert (Hall : forallb (fun p => validate_player_handle (snd p) (fst p) n) (b_handles b) = true <->
                 forall t h, In (CAddPlayer t h) pre -> handle_ok t h n).
  { rewrite forallb_forall. pose proof (r_np_pos _ _ Hr) as Hpos. split.
    - intros H t h Hin. apply (r_handles _ _ Hr) in Hin. pose proof (r_hok _ _ Hr _ _ Hin) as Hold.
      apply (H (h, t)) in Hin. cbn [fst snd] in Hin. apply validate_player_handle_spec in Hin; [exact Hin|].
      destruct t; cbn [handle_ok] in Hold; lia.
    - intros H [h t] Hin. cbn [fst snd]. pose proof (r_hok _ _ Hr _ _ Hin) as Hold.
      apply validate_player_handle_spec; [destruct t; cbn [handle_ok] in Hold; lia|].
      apply H, (r_handles _ _ Hr), Hin. }
  destruct (Z.eqb_spec n 0) as [Hn0|Hn0]; [right; split; [reflexivity|lia]|].
  destruct (forallb _ _).
  - left. eexists. split; [reflexivity|]. apply proj1 in Hall. specialize (Hall eq_refl).
    split; [split; [lia|exact Hall]|]. pose proof (r_handles _ _ Hr) as Hh.
    repr_snoc Hr; [lia|]. intros h t Hin. apply Hall, Hh, Hin.
  - right. split; [reflexivity|]. intros [_ H]. apply Hall in H. discriminate.
Qed.

Lemma step_spec : forall pre b c, repr pre b -> usize_call c ->
  (exists b', apply_call b c = Ok b' /\ call_ok pre c /\ repr (pre ++ [c]) b') \/
  (apply_call b c = Err /\ ~ call_ok pre c).
Proof.
  intros pre b c Hr Hu.
  destruct c; cbn [apply_call usize_call call_ok] in *;
    unfold with_max_prediction_window, with_input_delay, with_sparse_saving_mode,
           with_desync_detection_mode, with_disconnect_timeout, with_disconnect_notify_delay,
           with_check_distance;
    try (left; eexists; split; [reflexivity | split; [exact I | repr_snoc Hr]]).
  - exact (add_player_spec pre b t h Hr Hu).
  - exact (with_num_players_spec pre b n Hr Hu).
  - unfold with_fps. destruct (Z.eqb_spec f 0); [right; split; [reflexivity | lia]|].
    left. eexists. split; [reflexivity | split; [lia | repr_snoc Hr]].
  - unfold with_max_frames_behind.
    destruct (Z.ltb_spec m 1); [right; split; [reflexivity | lia]|].
    destruct (Z.leb_spec SPECTATOR_BUFFER_SIZE m); [right; split; [reflexivity | lia]|].
    left. eexists. split; [reflexivity | split; [lia | repr_snoc Hr]].
  - unfold with_catchup_speed. destruct (Z.ltb_spec s 1); [right; split; [reflexivity | lia]|].
    left. eexists. split; [reflexivity | split; [lia | repr_snoc Hr]].
Qed.

Lemma in_bzrange : forall n h, In h (zrange n) <-> 0 <= h < n.
Proof.
  intros n h. unfold zrange. rewrite in_map_iff. split.
  - intros [k [Hk Hin]]. apply in_seq in Hin. lia.
  - intro H. exists (Z.to_nat h). split; [lia | apply in_seq; lia].
Qed.

Lemma registered_spec : forall pre b, repr pre b ->
  (forallb (fun h => contains_key h (b_handles b)) (zrange (b_num_players b)) = true <->
   forall h, 0 <= h < np_of pre -> exists t, In (CAddPlayer t h) pre).
Proof.
  intros pre b Hr. rewrite forallb_forall. rewrite <- (r_np _ _ Hr). split.
  - intros H h Hh. apply in_bzrange in Hh. apply H in Hh. apply contains_key_spec in Hh.
    destruct Hh as [t Hin]. exists t. apply (r_handles _ _ Hr). assumption.
  - intros H h Hh. apply in_bzrange in Hh. destruct (H h Hh) as [t Hin].
    apply contains_key_spec. exists t. apply (r_handles _ _ Hr). assumption.
Qed.

Lemma no_local_assert : forall pre b, repr pre b ->
  forallb (fun p => if is_local (snd p) then fst p <? b_num_players b else true) (b_handles b) = true.
Proof.
  intros pre b Hr. apply forallb_forall. intros [h t] Hin. cbn [fst snd].
  pose proof (r_hok _ _ Hr _ _ Hin) as Hok. destruct t; cbn [is_local handle_ok] in *; [lia | reflexivity | reflexivity].
Qed.

Lemma finish_spec : forall pre b f, repr pre b ->
  (exists s, finish b f = Ok s /\ fin_ok pre f) \/ (finish b f = Err /\ ~ fin_ok pre f).
Proof.
  intros pre b f Hr. destruct f; cbn [finish fin_ok].
  - unfold start_p2p_session.
    pose proof (r_desync _ _ Hr) as Hd.
    destruct (match b_desync b with Some i => i =? 0 | None => false end) eqn:Hd0.
    + right. split; [reflexivity|]. intros [_ Hne]. apply Hne. rewrite <- Hd.
      destruct (b_desync b); [f_equal; lia | discriminate].
    + pose proof (registered_spec _ _ Hr) as Hreg.
      destruct (forallb (fun h => contains_key h (b_handles b)) (zrange (b_num_players b))) eqn:Hall; cbn [negb].
      * rewrite (no_local_assert _ _ Hr). cbn [negb]. left. eexists. split; [reflexivity|].
        split; [apply Hreg; reflexivity|]. rewrite <- Hd. destruct (b_desync b); [intro H; inversion H; lia | discriminate].
      * right. split; [reflexivity|]. intros [Hall' _]. apply Hreg in Hall'. discriminate.
  - left. eexists. split; [reflexivity | exact I].
  - unfold start_synctest_session. rewrite <- (r_cd _ _ Hr), <- (r_win _ _ Hr), <- (r_sparse _ _ Hr).
    destruct (b_max_prediction b <=? b_check_dist b) eqn:H1.
    + right. split; [reflexivity | lia].
    + destruct (b_sparse b) eqn:H2.
      * right. split; [reflexivity|]. intros [_ H]; discriminate.
      * left. eexists. split; [reflexivity|]. split; [lia | reflexivity].
Qed.

Lemma calls_ok_nil : calls_ok [].
Proof. intros pre c post H. destruct pre; discriminate. Qed.

Lemma calls_ok_snoc : forall pre c, calls_ok pre -> call_ok pre c -> calls_ok (pre ++ [c]).
Proof.
  intros pre c Hok Hc p x q. induction q as [|y q' _] using rev_ind; intro Heq.
  - apply app_inj_tail in Heq. destruct Heq; subst. assumption.
  - replace (p ++ x :: q' ++ [y]) with ((p ++ x :: q') ++ [y]) in Heq
      by (rewrite <- app_assoc; reflexivity).
    apply app_inj_tail in Heq. destruct Heq as [Heq _]. eapply Hok. exact Heq.
Qed.

Lemma calls_ok_nth : forall cs n c, calls_ok cs -> nth_error cs n = Some c -> call_ok (firstn n cs) c.
Proof.
  intros cs n c Hok Hn. apply nth_error_split in Hn. destruct Hn as [l1 [l2 [Heq Hlen]]].
  replace (firstn n cs) with l1; [exact (Hok l1 c l2 Heq)|].
  subst cs n. rewrite firstn_app, Nat.sub_diag, firstn_all. cbn [firstn]. symmetry. apply app_nil_r.
Qed.

Lemma first_invalid_not_valid : forall cs f n, first_invalid cs f n -> ~ valid_calls cs f.
Proof.
  intros cs f n [Hle [_ Hbad]] [Hok Hfin].
  destruct (nth_error cs n) as [c|] eqn:Hn; [|contradiction].
  exact (Hbad (calls_ok_nth _ _ _ Hok Hn)).
Qed.

Lemma run_from_spec : forall cs pre b f,
  repr pre b -> calls_ok pre -> Forall usize_call cs ->
  (exists b' s, run_from b (length pre) cs f = (length (pre ++ cs), Ok s) /\
                repr (pre ++ cs) b' /\ finish b' f = Ok s /\ valid_calls (pre ++ cs) f) \/
  (exists n, run_from b (length pre) cs f = (n, Err) /\ first_invalid (pre ++ cs) f n).
Proof.
  induction cs as [|c rest IH]; intros pre b f Hr Hok Hu.
  - rewrite app_nil_r. cbn [run_from].
    destruct (finish_spec pre b f Hr) as [[s [Hf Hfin]] | [Hf Hnf]].
    + left. exists b, s. rewrite Hf.
      split; [reflexivity | split; [assumption | split; [reflexivity | split; assumption]]].
    + right. exists (length pre). rewrite Hf. split; [reflexivity|].
      unfold first_invalid. rewrite firstn_all. split; [lia|]. split; [assumption|].
      assert (Hn : nth_error pre (length pre) = None) by (apply nth_error_None; lia).
      rewrite Hn. assumption.
  - inversion Hu as [|? ? Hc Hrest]; subst. cbn [run_from].
    destruct (step_spec pre b c Hr Hc) as [[b' [Ha [Hcok Hr']]] | [Ha Hnc]]; rewrite Ha.
    + specialize (IH (pre ++ [c]) b' f Hr' (calls_ok_snoc _ _ Hok Hcok) Hrest).
      rewrite app_length in IH. cbn [length] in IH. rewrite Nat.add_1_r in IH.
      rewrite <- app_assoc in IH. cbn [app] in IH. exact IH.
    + right. exists (length pre). split; [reflexivity|].
      unfold first_invalid. rewrite firstn_app, Nat.sub_diag, firstn_all. cbn [firstn]. rewrite app_nil_r.
      split; [rewrite app_length; lia|]. split; [assumption|].
      rewrite nth_error_app2, Nat.sub_diag by lia. cbn [nth_error]. assumption.
Qed.

Lemma run_calls_cases : 1 <= DEFAULT_PLAYERS -> forall cs f, Forall usize_call cs ->
  (exists b s, run_calls cs f = (length cs, Ok s) /\ repr cs b /\ finish b f = Ok s /\ valid_calls cs f) \/
  (exists n, run_calls cs f = (n, Err) /\ first_invalid cs f n).
Proof.
  intros Hd cs f Hu. exact (run_from_spec cs [] new_builder f (repr_new Hd) calls_ok_nil Hu).
Qed.

Theorem builder_spec : 1 <= DEFAULT_PLAYERS -> forall cs f, Forall usize_call cs ->
  snd (run_calls cs f) <> Panic /\
  ((exists s, snd (run_calls cs f) = Ok s) <-> valid_calls cs f) /\
  ((exists s, snd (run_calls cs f) = Ok s) -> fst (run_calls cs f) = length cs) /\
  (snd (run_calls cs f) = Err <-> ~ valid_calls cs f) /\
  (snd (run_calls cs f) = Err -> first_invalid cs f (fst (run_calls cs f))).
Proof.
  intros Hd cs f Hu.
  destruct (run_calls_cases Hd cs f Hu) as [[b [s [Hrun [_ [_ Hv]]]]] | [n [Hrun Hfi]]]; rewrite Hrun; cbn [fst snd].
  - split; [discriminate|]. split; [split; [intros; assumption | intros; exists s; reflexivity]|].
    split; [reflexivity|]. split; [split; [discriminate | intro H; contradiction] | discriminate].
  - pose proof (first_invalid_not_valid _ _ _ Hfi) as Hnv.
    split; [discriminate|]. split; [split; [intros [s H]; discriminate | intro; contradiction]|].
    split; [intros [s H]; discriminate|]. split; [split; intros; [assumption | reflexivity] | intros; assumption].
Qed.

(* the index of the first rejected call is unique, so "the reported index" is determined by the predicate *)
Lemma first_invalid_unique : forall cs f n m, first_invalid cs f n -> first_invalid cs f m -> n = m.
Proof.
  assert (Hlt : forall cs f n m, (n < m)%nat -> first_invalid cs f n -> first_invalid cs f m -> False).
  { intros cs f n m Hnm [Hn1 [_ Hn3]] [Hm1 [Hm2 _]].
    destruct (nth_error cs n) as [c|] eqn:Hc; [|apply nth_error_None in Hc; lia].
    (* the call at n is among the first m, all of which are allowed *)
    apply Hn3. replace (firstn n cs) with (firstn n (firstn m cs)) by (rewrite firstn_firstn; f_equal; lia).
    apply calls_ok_nth; [exact Hm2|].
    rewrite <- (firstn_skipn m cs), nth_error_app1 in Hc; [exact Hc|]. rewrite firstn_length. lia. }
  intros cs f n m Hn Hm.
  destruct (Nat.lt_trichotomy n m) as [H | [H | H]]; [exfalso; eauto | assumption | exfalso; eauto].
Qed.

Lemma in_insert_sorted : forall x y l, In x (insert_sorted y l) <-> x = y \/ In x l.
Proof.
  intros x y l. induction l as [|a r IH]; cbn [insert_sorted].
  - cbn [In]. intuition.
  - destruct (y <=? a); cbn [In] in *; [intuition | rewrite IH; intuition].
Qed.

Lemma in_sortZ : forall x l, In x (sortZ l) <-> In x l.
Proof.
  intros x l. unfold sortZ. induction l as [|a r IH]; cbn [fold_right]; [reflexivity|].
  rewrite in_insert_sorted, IH. cbn [In]. intuition.
Qed.

Lemma in_insert_uniq : forall x y l, In x (insert_uniq y l) <-> x = y \/ In x l.
Proof.
  intros x y l. induction l as [|a r IH]; cbn [insert_uniq].
  - cbn [In]. intuition.
  - destruct (y <? a) eqn:H1; [cbn [In]; intuition|].
    destruct (y =? a) eqn:H2.
    + assert (y = a) by lia. subst. cbn [In]. intuition.
    + cbn [In]. rewrite IH. intuition.
Qed.

Lemma in_sort_uniq : forall x l, In x (sort_uniq l) <-> In x l.
Proof.
  intros x l. unfold sort_uniq. induction l as [|a r IH]; cbn [fold_right]; [reflexivity|].
  rewrite in_insert_uniq, IH. cbn [In]. intuition.
Qed.

Lemma insert_uniq_sorted : forall x l, StronglySorted Z.lt l -> StronglySorted Z.lt (insert_uniq x l).
Proof.
  intros x l. induction l as [|a r IH]; intro Hs; cbn [insert_uniq].
  - constructor; constructor.
  - inversion Hs as [|? ? Hr Hall]; subst.
    destruct (x <? a) eqn:H1.
    + constructor; [assumption|]. constructor; [lia|].
      eapply Forall_impl; [|exact Hall]. intros; lia.
    + destruct (x =? a) eqn:H2; [assumption|].
      constructor; [apply IH; assumption|].
      rewrite Forall_forall. intros y Hy. apply in_insert_uniq in Hy.
      rewrite Forall_forall in Hall. destruct Hy; [lia | auto].
Qed.

Lemma sort_uniq_nodup : forall l, NoDup (sort_uniq l).
Proof.
  intro l. assert (Hs : StronglySorted Z.lt (sort_uniq l)).
  { unfold sort_uniq. induction l; cbn [fold_right]; [constructor | apply insert_uniq_sorted; assumption]. }
  induction Hs as [|a r Hr IH Hall]; constructor; [|assumption].
  intro Hin. rewrite Forall_forall in Hall. specialize (Hall _ Hin). lia.
Qed.

Lemma in_handles_where : forall f hs h,
  In h (handles_where f hs) <-> exists t, In (h, t) hs /\ f t = true.
Proof.
  intros f hs h. unfold handles_where. rewrite in_sortZ, in_map_iff. split.
  - intros [[h' t] [Heq Hin]]. cbn [fst] in Heq. subst. apply filter_In in Hin. exists t. exact Hin.
  - intros [t [Hin Hf]]. exists (h, t). split; [reflexivity | apply filter_In; split; assumption].
Qed.

Lemma handles_where_calls : forall pre b f h, repr pre b ->
  (In h (handles_where f (b_handles b)) <-> exists t, f t = true /\ In (CAddPlayer t h) pre).
Proof.
  intros pre b f h Hr. rewrite in_handles_where.
  split.
  - intros [t [Hin Hf]]. exists t. split; [exact Hf|apply (r_handles _ _ Hr), Hin].
  - intros [t [Hf Hin]]. exists t. split; [apply (r_handles _ _ Hr), Hin|exact Hf].
Qed.

Definition peer (spectator : bool) (a : Z) : ptype := if spectator then Spectator a else Remote a.

Lemma ptype_eqb_eq : forall t u, ptype_eqb t u = true <-> t = u.
Proof.
  intros t u. destruct t, u; cbn [ptype_eqb]; split; intro H; try discriminate; try reflexivity;
    try (f_equal; lia); inversion H; lia.
Qed.

Lemma in_remote_addrs : forall hs a, In a (remote_addrs hs) <-> exists h, In (h, Remote a) hs.
Proof.
  intros hs a. unfold remote_addrs. rewrite in_sort_uniq, in_flat_map. split.
  - intros [[h t] [Hin Ha]]. cbn [snd] in Ha. destruct t; cbn [In] in Ha; try contradiction.
    destruct Ha as [Ha | []]. subst. exists h; assumption.
  - intros [h Hin]. exists (h, Remote a). split; [assumption | left; reflexivity].
Qed.

Lemma in_spectator_addrs : forall hs a, In a (spectator_addrs hs) <-> exists h, In (h, Spectator a) hs.
Proof.
  intros hs a. unfold spectator_addrs. rewrite in_sort_uniq, in_flat_map. split.
  - intros [[h t] [Hin Ha]]. cbn [snd] in Ha. destruct t; cbn [In] in Ha; try contradiction.
    destruct Ha as [Ha | []]. subst. exists h; assumption.
  - intros [h Hin]. exists (h, Spectator a). split; [assumption | left; reflexivity].
Qed.

Lemma in_endpoints : forall hs e,
  In e (endpoints hs) <->
  (exists h, In (h, peer (e_spectator e) (e_addr e)) hs) /\
  e_handles e = handles_where (ptype_eqb (peer (e_spectator e) (e_addr e))) hs.
Proof.
  intros hs e. unfold endpoints. rewrite in_app_iff, !in_map_iff. split.
  - intros [[a [He Hin]] | [a [He Hin]]]; subst e; cbn [e_addr e_spectator e_handles peer].
    + apply in_remote_addrs in Hin. split; [assumption | reflexivity].
    + apply in_spectator_addrs in Hin. split; [assumption | reflexivity].
  - destruct e as [a hl k]. cbn [e_addr e_spectator e_handles]. intros [Hex Heq]. subst hl.
    destruct k; cbn [peer] in *.
    + right. exists a. split; [reflexivity | apply in_spectator_addrs; assumption].
    + left. exists a. split; [reflexivity | apply in_remote_addrs; assumption].
Qed.

Lemma endpoints_registered : forall pre b, repr pre b -> forall a k,
  (exists e, In e (endpoints (b_handles b)) /\ e_addr e = a /\ e_spectator e = k) <->
  (exists h, In (CAddPlayer (peer k a) h) pre).
Proof.
  intros pre b Hr a k. pose proof (r_handles _ _ Hr) as Hh. split.
  - intros [e [Hin [Ha Hk]]]. apply in_endpoints in Hin. destruct Hin as [[h Hin] _]. subst.
    exists h. apply Hh. assumption.
  - intros [h Hin]. apply Hh in Hin.
    exists (mkE a (handles_where (ptype_eqb (peer k a)) (b_handles b)) k).
    split; [|split; reflexivity]. apply in_endpoints. cbn [e_addr e_spectator e_handles].
    split; [exists h; assumption | reflexivity].
Qed.

Lemma endpoint_handles_registered : forall pre b, repr pre b -> forall e h,
  In e (endpoints (b_handles b)) ->
  (In h (e_handles e) <-> In (CAddPlayer (peer (e_spectator e) (e_addr e)) h) pre).
Proof.
  intros pre b Hr e h Hin. apply in_endpoints in Hin. destruct Hin as [_ Heq].
  rewrite Heq, (handles_where_calls _ _ _ _ Hr). split.
  - intros [t [Ht Hin]]. apply ptype_eqb_eq in Ht. subst t. assumption.
  - intro Hin. eexists. split; [apply ptype_eqb_eq; reflexivity | exact Hin].
Qed.

Lemma nodup_app : forall (A : Type) (l1 l2 : list A),
  NoDup l1 -> NoDup l2 -> (forall x, In x l1 -> ~ In x l2) -> NoDup (l1 ++ l2).
Proof.
  intros A l1 l2 H1 H2 Hd. induction H1 as [|a l Hnin Hl IH]; cbn [app]; [assumption|].
  constructor.
  - rewrite in_app_iff. intros [H | H]; [contradiction | apply (Hd a); [left; reflexivity | assumption]].
  - apply IH. intros x Hx. apply Hd. right; assumption.
Qed.

Lemma endpoints_nodup : forall hs,
  NoDup (map (fun e => (e_addr e, e_spectator e)) (endpoints hs)).
Proof.
  intro hs. unfold endpoints. rewrite map_app, !map_map. cbn [e_addr e_spectator].
  apply nodup_app.
  - apply Injective_map_NoDup; [intros x y H; inversion H; reflexivity | apply sort_uniq_nodup].
  - apply Injective_map_NoDup; [intros x y H; inversion H; reflexivity | apply sort_uniq_nodup].
  - intros [a k] H1 H2. apply in_map_iff in H1. apply in_map_iff in H2.
    destruct H1 as [? [H1 _]]. destruct H2 as [? [H2 _]]. inversion H1; inversion H2; congruence.
Qed.

Lemma nodup_map_filter : forall (A B : Type) (g : A -> B) (p : A -> bool) (l : list A),
  NoDup (map g l) -> NoDup (map g (filter p l)).
Proof.
  intros A B g p l. induction l as [|a r IH]; cbn [map filter]; intro H; [constructor|].
  inversion H; subst. destruct (p a); cbn [map]; [|auto].
  constructor; [|auto]. intro Hin. apply in_map_iff in Hin. destruct Hin as [x [Hx Hin]].
  apply filter_In in Hin. destruct Hin as [Hin _]. apply H2. rewrite <- Hx. apply in_map. assumption.
Qed.

Lemma bzrange_nodup : forall n, NoDup (zrange n).
Proof.
  intro n. unfold zrange. apply Injective_map_NoDup; [intros x y H; lia | apply seq_NoDup].
Qed.

(* P2PSession::num_players() counts the Local/Remote entries; for an accepted configuration this
   is the configured num_players *)
Lemma player_count : forall pre b, repr pre b ->
  (forall h, 0 <= h < np_of pre -> exists t, In (CAddPlayer t h) pre) ->
  Z.of_nat (length (filter (fun p => negb (is_spectator (snd p))) (b_handles b))) = b_num_players b.
Proof.
  intros pre b Hr Hreg.
  set (F := filter (fun p => negb (is_spectator (snd p))) (b_handles b)).
  assert (Hperm : Permutation (map fst F) (zrange (b_num_players b))).
  { apply NoDup_Permutation.
    - apply nodup_map_filter. apply (r_nodup _ _ Hr).
    - apply bzrange_nodup.
    - intro h. rewrite in_bzrange, in_map_iff. split.
      + intros [[h' t] [Heq Hin]]. cbn [fst] in Heq. subst h'. apply filter_In in Hin. destruct Hin as [Hin Hns].
        cbn [snd] in Hns. pose proof (r_hok _ _ Hr _ _ Hin) as Hok.
        destruct t; cbn [handle_ok is_spectator negb] in *; [assumption | assumption | discriminate].
      + intro Hh. rewrite (r_np _ _ Hr) in Hh. destruct (Hreg h Hh) as [t Hin].
        apply (r_handles _ _ Hr) in Hin. exists (h, t). split; [reflexivity|].
        apply filter_In. split; [assumption|]. cbn [snd].
        pose proof (r_hok _ _ Hr _ _ Hin) as Hok. rewrite (r_np _ _ Hr) in Hok.
        destruct t; cbn [handle_ok is_spectator negb] in *; [reflexivity | reflexivity | lia]. }
  apply Permutation_length in Hperm. rewrite map_length in Hperm. rewrite Hperm.
  unfold zrange. rewrite map_length, seq_length. pose proof (r_np_pos _ _ Hr). lia.
Qed.

Theorem p2p_shape : 1 <= DEFAULT_PLAYERS -> forall cs n p, Forall usize_call cs ->
  run_calls cs FP2P = (n, Ok (SP2P p)) ->
  NoDup (map (fun e => (e_addr e, e_spectator e)) (p_endpoints p)) /\
  (forall a k, (exists e, In e (p_endpoints p) /\ e_addr e = a /\ e_spectator e = k) <->
               (exists h, In (CAddPlayer (peer k a) h) cs)) /\
  (forall e h, In e (p_endpoints p) ->
               (In h (e_handles e) <-> In (CAddPlayer (peer (e_spectator e) (e_addr e)) h) cs)) /\
  (p_running p = true <-> p_endpoints p = []) /\
  p_cfg_num_players p = np_of cs /\ p_num_players p = np_of cs /\ 1 <= np_of cs /\
  (forall h, 0 <= h < np_of cs <-> In h (p_local p) \/ In h (p_remote p)) /\
  (forall h, In h (p_local p) <-> In (CAddPlayer Local h) cs) /\
  (forall h, In h (p_remote p) <-> exists a, In (CAddPlayer (Remote a) h) cs) /\
  (forall h, In h (p_spectators p) <-> exists a, In (CAddPlayer (Spectator a) h) cs) /\
  (forall h, In h (p_spectators p) -> np_of cs <= h) /\
  (* sparse saving is forced off in lockstep mode *)
  p_max_prediction p = window_of cs /\ p_input_delay p = delay_of cs /\ p_desync p = desync_of cs /\
  p_sparse p = (if window_of cs =? 0 then false else sparse_of cs).
Proof.
  intros Hd cs n p Hu Hrun.
  destruct (run_calls_cases Hd cs FP2P Hu) as [[b [s [Hrun' [Hr [Hfin [_ Hfok]]]]]] | [m [Hrun' _]]];
    rewrite Hrun in Hrun'; inversion Hrun'; subst; clear Hrun'.
  cbn [finish fin_ok] in *. destruct Hfok as [Hreg _].
  pose proof (player_count _ _ Hr Hreg) as Hcount.
  unfold start_p2p_session in Hfin.
  destruct (match b_desync b with Some i => i =? 0 | None => false end); [discriminate|].
  destruct (negb (forallb (fun h => contains_key h (b_handles b)) (zrange (b_num_players b)))); [discriminate|].
  destruct (negb (forallb (fun p0 => if is_local (snd p0) then fst p0 <? b_num_players b else true) (b_handles b))); [discriminate|].
  inversion Hfin; subst p; clear Hfin.
  cbn [p_num_players p_cfg_num_players p_running p_endpoints p_local p_remote p_spectators p_by_addr
       p_max_prediction p_sparse p_desync p_input_delay p_fps].
  pose proof (r_handles _ _ Hr) as Hh. pose proof (r_np _ _ Hr) as Hnp. pose proof (r_np_pos _ _ Hr) as Hpos.
  assert (Hok : forall h t, In (CAddPlayer t h) cs -> handle_ok t h (np_of cs))
    by (intros h t Hin; rewrite <- Hnp; apply (r_hok _ _ Hr), Hh, Hin).
  split; [apply endpoints_nodup|].
  split; [exact (endpoints_registered _ _ Hr)|].
  split; [exact (endpoint_handles_registered _ _ Hr)|].
  split.
  { destruct (endpoints (b_handles b)); split; intro H; try reflexivity; discriminate. }
  split; [assumption|]. split; [lia|]. split; [lia|].
  rewrite <- (r_win _ _ Hr), <- (r_delay _ _ Hr), <- (r_desync _ _ Hr), <- (r_sparse _ _ Hr).
  repeat setoid_rewrite (handles_where_calls _ _ _ _ Hr).
  split.
  { intro h. split.
    - intro Hrange. destruct (Hreg h Hrange) as [t Hin]. specialize (Hok _ _ Hin).
      destruct t; cbn [handle_ok] in Hok; [left; exists Local | right; exists (Remote a) | lia]; auto.
    - intros [[t [Ht Hin]] | [t [Ht Hin]]]; specialize (Hok _ _ Hin);
        destruct t; try discriminate; exact Hok. }
  split.
  { intro h. split; [intros [[|a|a] [Ht Hin]]; try discriminate; exact Hin | intro Hin; exists Local; auto]. }
  split.
  { intro h. split; [intros [[|a|a] [Ht Hin]]; try discriminate; eauto | intros [a Hin]; exists (Remote a); auto]. }
  split.
  { intro h. split; [intros [[|a|a] [Ht Hin]]; try discriminate; eauto | intros [a Hin]; exists (Spectator a); auto]. }
  split.
  { intros h [[|a|a] [Ht Hin]]; try discriminate. exact (Hok _ _ Hin). }
  repeat split; try reflexivity.
  destruct (b_max_prediction b =? 0); destruct (b_sparse b); reflexivity.
Qed.

Theorem other_sessions_shape : 1 <= DEFAULT_PLAYERS -> forall cs f n s, Forall usize_call cs ->
  run_calls cs f = (n, Ok s) ->
  match s with
  | SP2P _ => f = FP2P
  | SSpectator np host _ _ => f = FSpectator host /\ np = np_of cs /\ 1 <= np
  | SSyncTest np w cd d => f = FSyncTest /\ np = np_of cs /\ 1 <= np /\ w = window_of cs /\
                           cd = check_dist_of cs /\ d = delay_of cs /\ cd < w
  end.
Proof.
  intros Hd cs f n s Hu Hrun.
  destruct (run_calls_cases Hd cs f Hu) as [[b [s' [Hrun' [Hr [Hfin [_ Hfok]]]]]] | [m [Hrun' _]]];
    rewrite Hrun in Hrun'; inversion Hrun'; subst; clear Hrun'.
  pose proof (r_np _ _ Hr) as Hnp. pose proof (r_np_pos _ _ Hr) as Hpos.
  destruct f; cbn [finish fin_ok] in *.
  - unfold start_p2p_session in Hfin.
    destruct (match b_desync b with Some i => i =? 0 | None => false end); [discriminate|].
    destruct (negb _); [discriminate|]. destruct (negb _); [discriminate|].
    inversion Hfin; reflexivity.
  - unfold start_spectator_session in Hfin. inversion Hfin; subst. repeat split; [assumption | lia].
  - unfold start_synctest_session in Hfin.
    destruct (b_max_prediction b <=? b_check_dist b) eqn:H1; [discriminate|].
    destruct (b_sparse b); [discriminate|]. inversion Hfin; subst.
    rewrite <- (r_win _ _ Hr), <- (r_cd _ _ Hr), <- (r_delay _ _ Hr).
    repeat split; try assumption; lia.
Qed.

Definition ex_valid : list call :=
  [CNumPlayers 2; CAddPlayer Local 0; CAddPlayer (Remote 7) 1; CAddPlayer (Spectator 9) 2; CInputDelay 2].

Lemma ex_valid_runs :
  run_calls ex_valid FP2P =
  (5%nat, Ok (SP2P (mkP 2 2 false [mkE 7 [1] false; mkE 9 [2] true] [0] [1] [2] [(7, [1]); (9, [2])]
                        DEFAULT_MAX_PREDICTION_FRAMES false None 2 DEFAULT_FPS))).
Proof. vm_compute. reflexivity. Qed.

Lemma ex_valid_usize : Forall usize_call ex_valid.
Proof. repeat constructor; cbn [usize_call]; lia. Qed.

(* the same players, then shrinking num_players to 1: the remote handle 1 becomes invalid, the
   call with index 3 is rejected; a later invalid call (fps 0) is not what is reported *)
Definition ex_invalid : list call :=
  [CAddPlayer Local 0; CAddPlayer (Remote 7) 1; CAddPlayer (Spectator 9) 2; CNumPlayers 1; CFps 0].

Lemma ex_invalid_runs : run_calls ex_invalid FP2P = (3%nat, Err).
Proof. vm_compute. reflexivity. Qed.

Lemma ex_invalid_usize : Forall usize_call ex_invalid.
Proof. repeat constructor; cbn [usize_call]; lia. Qed.

(* both directly from the declarative predicate, without the model *)
Lemma ex_valid_is_valid : valid_calls ex_valid FP2P.
Proof.
  split.
  - intros pre c post Heq. unfold ex_valid in Heq.
    do 6 (destruct pre as [|? pre]; [inversion Heq; subst; clear Heq;
          cbn [call_ok handle_ok app]; unfold np_of; cbn [last_set];
          try exact I;
          try (split; [try (unfold DEFAULT_PLAYERS); lia|];
               first [ intros [t' Hin]; cbn [In] in Hin; repeat (destruct Hin as [Hin | Hin]; [discriminate|]); contradiction
                     | intros t h Hin; cbn [In] in Hin; contradiction ])
        | cbn [app] in Heq; first [discriminate | injection Heq as <- Heq]]).
    all: try (destruct pre; discriminate).
  - cbn [fin_ok]. split.
    + intros h Hh. unfold np_of, ex_valid in *. cbn [last_set] in Hh.
      assert (h = 0 \/ h = 1) as [-> | ->] by lia; [exists Local | exists (Remote 7)]; cbn [In]; auto.
    + unfold desync_of, ex_valid. cbn [last_set]. discriminate.
Qed.

Lemma ex_invalid_first_invalid : first_invalid ex_invalid FP2P 3.
Proof.
  unfold first_invalid. split; [cbn; lia|]. split.
  - cbn [firstn ex_invalid]. intros pre c post Heq.
    do 4 (destruct pre as [|? pre]; [inversion Heq; subst; clear Heq;
          cbn [call_ok handle_ok app]; unfold np_of; cbn [last_set]; unfold DEFAULT_PLAYERS;
          (split; [lia|]; intros [t' Hin]; cbn [In] in Hin;
           repeat (destruct Hin as [Hin | Hin]; [discriminate|]); contradiction)
        | cbn [app] in Heq; first [discriminate | injection Heq as <- Heq]]).
    all: try (destruct pre; discriminate).
  - cbn [nth_error ex_invalid firstn call_ok]. intros [_ H].
    specialize (H (Remote 7) 1). cbn [In handle_ok] in H. assert (0 <= 1 < 1) by (apply H; auto). lia.
Qed.
