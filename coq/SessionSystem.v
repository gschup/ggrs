(* Two sessions and the link between them.  A session's run theorem (SessionTimeline.sends_and_receipts_g) says
   what leaves it and what it does with what arrives; composing two of them needs only the link's integrity
   contract - every input of player h that arrives at the receiver was handed to the network by h's owner, with
   that frame number and that value (no forgery, no alteration; loss, duplication, delay and reordering are the
   endpoint's business: EndpointLink.v delivers each frame once, in order) - to conclude that the two games used
   the same input for h at every frame both have confirmed and simulated. *)
From GGRS Require Import Base Consts Queue QueueProofs Sync P2P Session SessionProofs SessionSparse SessionProgress SessionSparse2 SessionTimeline SessionTimelineSparse SessionLockstep.
From GGRS Require Spectator SpectatorProofs.
From GGRS Require Import LiaSetup.
Open Scope Z_scope.

(* the link contract for player h from its owner (outputs outsA) to a receiver (operations opsB) *)
Definition delivered_was_sent (h : Z) (outsA : list (pout * apires)) (opsB : list sop) : Prop :=
  forall f v, In (SRemote h f v) opsB -> exists m, In m (all_sends outsA) /\ assoc_get m h = Some (mkpi f v).

(* an input of local player h that arrived at the receiver was sent in a round, and a round carries what the
   session holds *)
Lemma arrived_is_held : forall sp w d p gs outs opsB h f v,
  QSg sp w d p gs -> rounds_ok (local_handles p) gs (all_sends outs) ->
  0 <= h -> nth_error (ps_kinds p) (Z.to_nat h) = Some KLocal ->
  delivered_was_sent h outs opsB -> In (SRemote h f v) opsB ->
  exists hist low, nth_error gs (Z.to_nat h) = Some (hist, low) /\ f < hlen hist /\ v = hval hist f.
Proof.
  intros sp w d p gs outs opsB h f v HQS Hrounds Hh Hloc Hlink Harr.
  destruct (Hlink f v Harr) as (m & Hm & Hmh).
  assert (Hl : (Z.to_nat h < length (ps_kinds p))%nat) by (apply nth_error_Some; congruence).
  assert (Hin : In h (local_handles p)).
  { apply (local_handles_spec p h (QS_nplayers _ _ _ _ _ HQS)). split; [|exact Hloc]. rewrite (QS_nplayers _ _ _ _ _ HQS). lia. }
  destruct (qs_n _ _ _ _ HQS) as (_ & _ & X & _).
  destruct (nth_error gs (Z.to_nat h)) as [[hist low]|] eqn:Eg; [|apply nth_error_None in Eg; lia].
  unfold rounds_ok in Hrounds. rewrite Forall_forall in Hrounds.
  destruct (Hrounds m Hm) as (f' & _ & Hr). destruct (Hr h (hist, low) Hin Eg) as (Hlt & Hm0). cbn [fst] in Hlt, Hm0.
  rewrite Hmh in Hm0. injection Hm0 as -> Hv. exists hist, low. split; [reflexivity|]. split; [exact Hlt|exact Hv].
Qed.

Section System.
Variable predict : Z -> Z.
Hypothesis predict_idem : forall x, predict (predict x) = predict x.
Hypothesis predict_zero : predict 0 = 0.

(* a session's mode: rollback (window >= 1, either saving mode) or lockstep (window 0; the builder's sparse flag is
   irrelevant there - nothing is ever saved - and the model's lockstep sessions are started with it off) *)
Definition mode_ok (sparse : bool) (w d : Z) : Prop :=
  (1 <= w /\ w + d + 3 <= QLEN) \/ (w = 0 /\ sparse = false /\ d + 4 <= QLEN).

Theorem sends_and_receipts_any : forall (sparse : bool) ops n w d kinds eps nspec p outs,
  mode_ok sparse w d -> 0 <= d -> 0 < n -> Z.of_nat (length kinds) = n -> players_only kinds ->
  srun_in predict (session_start n w sparse d kinds eps nspec) ops = Ok (p, outs) ->
  exists g gs, exec_outs w (game0 w) outs = Some g /\ QSg sparse w d p gs /\ gframe g = s_current (ps_sync p) /\
    (forall h hist low f, nth_error gs h = Some (hist, low) ->
       0 <= f <= s_last_confirmed (ps_sync p) -> f < s_current (ps_sync p) ->
       f < hlen hist /\ gvalL (g_hist g) f h = hval hist f) /\
    rounds_ok (local_handles p) gs (all_sends outs) /\
    (forall pl f v, In (SRemote pl f v) ops ->
      exists gh, nth_error gs (Z.to_nat pl) = Some gh /\ 0 <= f < hlen (fst gh) /\ hval (fst gh) f = v) /\
    (forall pl e gh f, 0 <= pl -> nth_error kinds (Z.to_nat pl) = Some (KRemote e) ->
      nth_error gs (Z.to_nat pl) = Some gh -> 0 <= f < hlen (fst gh) -> In (SRemote pl f (hval (fst gh) f)) ops) /\
    ps_kinds p = kinds /\ OB p gs /\ Forall (confirmed_ok gs) (all_adv_frames [] outs).
Proof.
  intros sparse ops n w d kinds eps nspec p outs [(Hw & Hc)|(-> & -> & Hc)] Hd Hn Hl Hp H.
  - destruct sparse.
    + exact (sparse_sends_and_receipts predict predict_idem predict_zero ops n w d kinds eps nspec p outs Hw Hd Hc Hn Hl Hp H).
    + exact (sends_and_receipts predict predict_idem predict_zero ops n w d kinds eps nspec p outs Hw Hd Hc Hn Hl Hp H).
  - destruct (lockstep_sends_and_receipts predict predict_idem predict_zero ops n d kinds eps nspec p outs Hd Hc Hn Hl Hp H)
      as (g & gs & Ex & HQS & Hfr & Hheld & Hrest).
    exists g, gs. split; [exact Ex|]. split; [exact HQS|]. split; [exact Hfr|]. split; [|exact Hrest].
    intros h hist low f Eg Hf Hfc. apply (Hheld h hist low f Eg). lia.
Qed.

Lemma host_broadcast_and_game_any : forall (sparse : bool) ops n w d kinds eps nspec p outs,
  mode_ok sparse w d -> 0 <= d -> 0 < n -> Z.of_nat (length kinds) = n -> players_only kinds -> (0 < nspec)%nat ->
  srun_in predict (session_start n w sparse d kinds eps nspec) ops = Ok (p, outs) ->
  exists g gs, exec_outs w (game0 w) outs = Some g /\ QSg sparse w d p gs /\
    all_spec_sends outs = map (fun f => (f, held_at gs f)) (zrange_from 0 (Z.to_nat (ps_next_spec p))) /\
    0 <= ps_next_spec p /\ s_last_confirmed (ps_sync p) + 1 <= ps_next_spec p /\
    (forall h hist low f, nth_error gs h = Some (hist, low) ->
       0 <= f <= s_last_confirmed (ps_sync p) -> f < s_current (ps_sync p) ->
       f < hlen hist /\ gvalL (g_hist g) f h = hval hist f).
Proof.
  intros sparse ops n w d kinds eps nspec p outs [(Hw & Hc)|(-> & -> & Hc)] Hd Hn Hl Hp Hns H.
  - destruct sparse.
    + exact (sparse_host_broadcast_and_game predict predict_idem predict_zero ops n w d kinds eps nspec p outs Hw Hd Hc Hn Hl Hp Hns H).
    + exact (host_broadcast_and_game predict predict_idem predict_zero ops n w d kinds eps nspec p outs Hw Hd Hc Hn Hl Hp Hns H).
  - exact (lockstep_host_broadcast_and_game predict predict_idem predict_zero ops n d kinds eps nspec p outs Hd Hc Hn Hl Hp Hns H).
Qed.

(* the session's own buffers after any run inside the space: every input queue holds between 0 and
   INPUT_QUEUE_LENGTH inputs, nothing is left in outgoing_local_inputs between calls, and every frame a local
   player's queue holds has been handed to the remote endpoints *)
Theorem session_buffers_bounded : forall (sparse : bool) ops n w d kinds eps nspec p outs,
  mode_ok sparse w d -> 0 <= d -> 0 < n -> Z.of_nat (length kinds) = n -> players_only kinds ->
  srun_in predict (session_start n w sparse d kinds eps nspec) ops = Ok (p, outs) ->
  Forall (fun q => 0 <= q_length q <= QLEN) (s_queues (ps_sync p)) /\
  (ps_remotes p <> [] -> local_handles p <> [] -> ps_outgoing p = []) /\
  exists gs, QSg sparse w d p gs /\ OB p gs.
Proof.
  intros sparse ops n w d kinds eps nspec p outs Hm Hd Hn Hl Hp H.
  destruct (sends_and_receipts_any sparse ops n w d kinds eps nspec p outs Hm Hd Hn Hl Hp H)
    as (g & gs & _ & HQS & _ & _ & _ & _ & _ & _ & HB & _).
  split; [|split; [intros Hr Hlo; exact (proj1 (HB Hr Hlo))|exists gs; split; assumption]].
  pose proof (qs_qs _ _ _ _ HQS) as HQ. unfold QsI in HQ.
  clear HB HQS. induction HQ as [|q gh qs gs' Hqi _ IH]; [constructor|]. constructor; [|exact IH].
  pose proof (qi_ring _ _ _ _ _ Hqi) as R. pose proof (ri_length _ _ _ R). pose proof (ri_cap _ _ _ R).
  destruct (ri_low _ _ _ R) as (L0 & L1 & L2).
  destruct (fst gh) as [|x xs] eqn:E; [rewrite (L2 eq_refl) in *; unfold hlen in *; cbn [length] in *; lia|].
  assert (X : x :: xs <> []) by discriminate. specialize (L1 X). lia.
Qed.

Theorem two_sessions_agree :
  forall (sparseA sparseB : bool) (opsA opsB : list sop) (n wA wB dA dB : Z) (kindsA kindsB : list pkind)
         (epsA epsB : list (list Z)) (nspecA nspecB : nat) (pA pB : p2p) (outsA outsB : list (pout * apires)),
  mode_ok sparseA wA dA -> 0 <= dA -> mode_ok sparseB wB dB -> 0 <= dB ->
  0 < n -> Z.of_nat (length kindsA) = n -> Z.of_nat (length kindsB) = n -> players_only kindsA -> players_only kindsB ->
  srun_in predict (session_start n wA sparseA dA kindsA epsA nspecA) opsA = Ok (pA, outsA) ->
  srun_in predict (session_start n wB sparseB dB kindsB epsB nspecB) opsB = Ok (pB, outsB) ->
  exists gA gB, exec_outs wA (game0 wA) outsA = Some gA /\ exec_outs wB (game0 wB) outsB = Some gB /\
    forall h e, 0 <= h -> nth_error kindsA (Z.to_nat h) = Some KLocal -> nth_error kindsB (Z.to_nat h) = Some (KRemote e) ->
      delivered_was_sent h outsA opsB ->
      forall f, 0 <= f <= s_last_confirmed (ps_sync pA) -> f < s_current (ps_sync pA) ->
                0 <= f <= s_last_confirmed (ps_sync pB) -> f < s_current (ps_sync pB) ->
        gvalL (g_hist gA) f (Z.to_nat h) = gvalL (g_hist gB) f (Z.to_nat h).
Proof.
  intros sparseA sparseB opsA opsB n wA wB dA dB kindsA kindsB epsA epsB nspecA nspecB pA pB outsA outsB
         HmA HdA HmB HdB Hn HlA HlB HpA HpB HA HB.
  destruct (sends_and_receipts_any sparseA opsA n wA dA kindsA epsA nspecA pA outsA HmA HdA Hn HlA HpA HA)
    as (gA & gsA & ExA & HQA & _ & HheldA & HroundsA & _ & _ & HkA & _ & _).
  destruct (sends_and_receipts_any sparseB opsB n wB dB kindsB epsB nspecB pB outsB HmB HdB Hn HlB HpB HB)
    as (gB & gsB & ExB & HQB & _ & HheldB & _ & _ & HcvB & HkB & _ & _).
  exists gA, gB. split; [exact ExA|]. split; [exact ExB|].
  intros h e Hh HlocA HremB Hlink f HfA HcfA HfB HcfB.
  assert (HlenB : (Z.to_nat h < length gsB)%nat).
  { destruct (qs_n _ _ _ _ HQB) as (_ & _ & X & _). rewrite HkB in X. rewrite <- X.
    apply nth_error_Some. congruence. }
  destruct (nth_error gsB (Z.to_nat h)) as [[histB lowB]|] eqn:EgB; [|apply nth_error_None in EgB; lia].
  destruct (HheldB _ _ _ f EgB HfB HcfB) as (HltB & HvB).
  (* B holds what arrived; what arrived is what A holds *)
  pose proof (HcvB h e (histB, lowB) f Hh HremB EgB ltac:(cbn [fst]; lia)) as Harr. cbn [fst] in Harr.
  rewrite <- HkA in HlocA.
  destruct (arrived_is_held _ _ _ _ _ _ _ _ _ _ HQA HroundsA Hh HlocA Hlink Harr) as (histA & lowA & EgA & _ & Hv).
  destruct (HheldA _ _ _ f EgA HfA HcfA) as (_ & HvA).
  rewrite HvA, HvB. symmetry. exact Hv.
Qed.

(* what the host hands to its spectators, frame by frame: the values only *)
Definition broadcast_values (outs : list (pout * apires)) : list (list Z) :=
  map (fun fm => map pi_val (snd fm)) (all_spec_sends outs).

(* the link contract host -> spectator: the frames that reached the spectator are, in order, the first so-many
   frames the host handed out (the endpoint delivers each frame once, in order, unaltered) *)
Definition spectator_got_prefix (outsH : list (pout * apires)) (opsS : list Spectator.sp_hop) : Prop :=
  Spectator.sp_hist opsS = firstn (length (Spectator.sp_hist opsS)) (broadcast_values outsH).

Lemma nth_firstn {A} : forall (l : list A) m k dflt, (k < m)%nat -> nth k (firstn m l) dflt = nth k l dflt.
Proof.
  induction l as [|x l IH]; intros m k dflt Hk; [rewrite firstn_nil; reflexivity|].
  destruct m as [|m]; [lia|]. cbn [firstn]. destruct k as [|k]; cbn [nth]; [reflexivity|]. apply IH. lia.
Qed.

(* the n-th frame the spectator is asked to advance carries, for every player, the input the host holds for frame n
   - which is what the host's own game simulated frame n with, once the host has confirmed it *)
Theorem spectator_replays_host :
  forall (sparse : bool) (ops : list sop) (n w d : Z) (kinds : list pkind) (eps : list (list Z)) (nspec : nat)
         (p : p2p) (outs : list (pout * apires)) (mfb cs : Z) (opsS : list Spectator.sp_hop),
  mode_ok sparse w d -> 0 <= d -> 0 < n -> Z.of_nat (length kinds) = n -> players_only kinds -> (0 < nspec)%nat ->
  srun_in predict (session_start n w sparse d kinds eps nspec) ops = Ok (p, outs) ->
  Spectator.sp_wf n opsS -> SpectatorProofs.sp_hlen (Spectator.sp_hist opsS) < 2 ^ 31 ->
  spectator_got_prefix outs opsS ->
  exists t g gs, Spectator.sp_hrun (Spectator.sp_start n mfb cs) opsS = Ok t /\
    exec_outs w (game0 w) outs = Some g /\ QSg sparse w d p gs /\
    let del := Spectator.sp_delivered (Spectator.sp_t_calls t) in
    (Z.of_nat (length del) <= ps_next_spec p) /\
    forall k, (k < length del)%nat ->
      map fst (nth k del []) = map (fun gh : ghost => hval (fst gh) (Z.of_nat k)) gs /\
      (Z.of_nat k <= s_last_confirmed (ps_sync p) -> Z.of_nat k < s_current (ps_sync p) ->
       forall h hist low, nth_error gs h = Some (hist, low) ->
         nth h (map fst (nth k del [])) 0 = gvalL (g_hist g) (Z.of_nat k) h).
Proof.
  intros sparse ops n w d kinds eps nspec p outs mfb cs opsS Hm Hd Hn Hl Hp Hns H Hwf Hlen Hlink.
  destruct (host_broadcast_and_game_any sparse ops n w d kinds eps nspec p outs Hm Hd Hn Hl Hp Hns H)
    as (g & gs & Ex & HQS & Hall & Hns0 & _ & Hheld).
  destruct (SpectatorProofs.sp_reach n mfb cs opsS ltac:(lia) Hwf Hlen) as (t & Et & T).
  exists t, g, gs. split; [exact Et|]. split; [exact Ex|]. split; [exact HQS|]. cbv zeta.
  destruct T as [r calls K Hdel Hdl]. cbn [Spectator.sp_t_calls]. set (del := Spectator.sp_delivered calls) in *.
  unfold spectator_got_prefix in Hlink. set (hist := Spectator.sp_hist opsS) in *.
  assert (Hbv : broadcast_values outs = map (fun f => map (fun gh : ghost => hval (fst gh) f) gs) (zrange_from 0 (Z.to_nat (ps_next_spec p)))).
  { unfold broadcast_values. rewrite Hall, map_map. apply map_ext. intros f. cbn [snd]. unfold held_at. rewrite map_map. reflexivity. }
  assert (Hhl : (length hist <= Z.to_nat (ps_next_spec p))%nat).
  { pose proof (f_equal (@length _) Hlink) as X. rewrite firstn_length, Hbv, map_length, zrange_length in X. lia. }
  split; [lia|].
  intros k Hk.
  assert (Hv : map fst (nth k del []) = map (fun gh : ghost => hval (fst gh) (Z.of_nat k)) gs).
  { rewrite (Hdel k Hk). fold hist. rewrite Hlink.
    rewrite nth_firstn by lia. rewrite Hbv. rewrite nth_map_zrange by lia. reflexivity. }
  split; [exact Hv|].
  intros Hkc Hkcur h hh low Eg. rewrite Hv.
  destruct (Hheld h hh low (Z.of_nat k) Eg ltac:(lia) Hkcur) as (_ & Hg). rewrite Hg.
  assert (Hmm : nth_error (map (fun gh : ghost => hval (fst gh) (Z.of_nat k)) gs) h = Some (hval hh (Z.of_nat k))).
  { rewrite nth_error_map. unfold ghost in *. rewrite Eg. reflexivity. }
  exact (nth_error_nth _ _ _ Hmm).
Qed.

End System.
