(* What the receiving endpoint hands to its session (Event::Input) against what the sending endpoint was handed
   (send_input): every Input event of a link run carries a frame of the stream and the value the sender's frame
   has for that player - through the delta/RLE codec, acknowledgements, retransmissions, loss, duplication and
   reordering.  (The link invariant of EndpointLink.v speaks about the frames the receiver STORES; this file
   carries it to the events the session SEES.) *)
From GGRS Require Import Base Consts TimeSync Codec Endpoint EndpointSpec EndpointProofs EndpointSafety EndpointLink.
From GGRS Require Import LiaSetup.
Open Scope Z_scope.

Lemma epl_input_events_nth : forall fr vals hs evs, input_events fr vals hs = Ok evs ->
  forall k v h, In (EvInput k v h) evs -> k = fr /\ exists a, nth_error vals a = Some v /\ nth_error hs a = Some h.
Proof.
  induction vals as [|v0 vals IH]; intros hs evs H k v h Hin; cbn [input_events] in H.
  - inversion H; subst. destruct Hin.
  - destruct hs as [|h0 hs']; [discriminate|].
    destruct (input_events fr vals hs') as [r| |] eqn:E; try discriminate. inversion H; subst.
    destruct Hin as [X|X].
    + inversion X; subst. split; [reflexivity|]. exists O. split; reflexivity.
    + destruct (IH _ _ E _ _ _ X) as (A & a & B & C). split; [exact A|]. exists (S a). split; assumption.
Qed.

Lemma epl_accept_events : forall dbg start inputs i s b s',
  accept_inputs dbg start i inputs s = Ok (b, s') ->
  exists evs, u_event_queue s' = u_event_queue s ++ evs /\
    forall k v h, In (EvInput k v h) evs -> exists j inp vals a,
      nth_error inputs j = Some inp /\ ts_i32_arith dbg (start + i + Z.of_nat j) = Ok k /\
      to_player_inputs (length (u_handles s)) inp = Some vals /\ nth_error vals a = Some v /\
      nth_error (u_handles s) a = Some h.
Proof.
  induction inputs as [|inp rest IH]; intros i s b s' H; cbn [accept_inputs] in H.
  - inversion H; subst. exists []. rewrite app_nil_r. split; [reflexivity|intros k v h []].
  - destruct (ts_i32_arith dbg (start + i)) as [fr| |] eqn:Ef; try discriminate.
    (* the events of the rest of the loop come from the inputs one position further on *)
    assert (Hshift : forall k j, ts_i32_arith dbg (start + (i + 1) + Z.of_nat j) = Ok k ->
              ts_i32_arith dbg (start + i + Z.of_nat (S j)) = Ok k)
      by (intros k j <-; f_equal; lia).
    destruct (fr <=? last_recv_frame s) eqn:Ele.
    + apply IH in H. destruct H as (evs & G1 & G2). exists evs. split; [exact G1|].
      intros k v h X. destruct (G2 k v h X) as (j & inp0 & vals & a & A1 & A2 & A3).
      exists (S j), inp0, vals, a. auto.
    + destruct (to_player_inputs (length (u_handles s)) inp) as [vals|] eqn:Et.
      * destruct (input_events fr vals (u_handles s)) as [evs0| |] eqn:Ee; try discriminate.
        apply IH in H. destruct H as (evs & G1 & G2). cbn [u_event_queue u_handles set_event_queue set_recv_inputs] in G1, G2.
        exists (evs0 ++ evs). split; [rewrite G1, app_assoc; reflexivity|].
        intros k v h X. apply in_app_iff in X. destruct X as [X|X].
        -- destruct (epl_input_events_nth _ _ _ _ Ee _ _ _ X) as (-> & a & B & C).
           exists O, inp, vals, a. split; [reflexivity|]. split; [rewrite <- Ef; f_equal; lia|]. auto.
        -- destruct (G2 k v h X) as (j & inp0 & vals0 & a & A1 & A2 & A3). exists (S j), inp0, vals0, a. auto.
      * inversion H; subst. exists []. rewrite app_nil_r. split; [reflexivity|intros k v h []].
Qed.

Lemma epl_handle_input_events : forall dbg now nonce m st dr sf af bytes s s',
  m_body m = Input st dr sf af bytes -> handle_message dbg now nonce m s = Ok s' ->
  forall k v h, In (EvInput k v h) (u_event_queue s') -> In (EvInput k v h) (u_event_queue s) \/
    exists ref ins j inp vals a, 0 <= sf /\
      alookup (eps_decode_frame s sf) (u_recv_inputs s) = Some ref /\ Codec.decode dbg ref bytes = Ok ins /\
      nth_error ins j = Some inp /\ ts_i32_arith dbg (sf + Z.of_nat j) = Ok k /\
      to_player_inputs (length (u_handles s)) inp = Some vals /\ nth_error vals a = Some v /\
      nth_error (u_handles s) a = Some h.
Proof.
  intros dbg now nonce m st dr sf af bytes s s' Hb H k v h X.
  destruct (epl_input_exit_cases _ _ _ _ _ _ _ _ _ (eps_input_exits _ _ _ _ _ _ _ _ _ _ _ Hb H))
    as [(_ & _ & Hq)|(s2 & ref & ins & acc & s4 & Eh & Hs & El & Ed & Ea & Hexit)].
  { left. exact (epl_no_new_input_in _ _ _ _ _ Hq X). }
  assert (X4 : In (EvInput k v h) (u_event_queue s4))
    by (destruct acc; [destruct Hexit as (w & lo & _ & _ & ->)|subst s']; exact X).
  destruct (epl_accept_events _ _ _ _ _ _ _ Ea) as (evs & G1 & G2).
  destruct (epl_header_queues _ _ _ _ _ _ Eh) as (_ & _ & Hq0).
  rewrite G1 in X4. cbn [u_event_queue set_last_input_recv] in X4.
  apply in_app_iff in X4. destruct X4 as [X4|X4]; [left; exact (epl_no_new_input_in _ _ _ _ _ Hq0 X4)|right].
  destruct (G2 _ _ _ X4) as (j & inp & vals & a & A1 & A2 & A3 & A4 & A5).
  destruct (eps_header_recv _ _ _ _ _ _ Eh) as (E1 & Hh & _). destruct (eps_header_ri _ _ _ _ _ _ Eh) as (Edf & _).
  rewrite Edf, E1 in El. cbn [u_handles set_last_input_recv] in A3, A5. rewrite Hh in A3, A5. rewrite Z.add_0_r in A2.
  exists ref, ins, j, inp, vals, a. auto 10.
Qed.

Section LinkEvents.
Variable dbg : bool.
Variable nh : nat.
Variable f0 : Z.
Variable hs : list Z.      (* the receiver's player handles: the sender's local players, in order *)

Definition ev_justified (sent : list ibytes) (e : event) : Prop :=
  match e with
  | EvInput k v h => exists b vals a, In (k, b) sent /\ to_player_inputs nh b = Some vals /\
                       nth_error vals a = Some v /\ nth_error hs a = Some h
  | _ => True
  end.

Lemma ev_justified_mono : forall sent x e, ev_justified sent e -> ev_justified (sent ++ x) e.
Proof.
  intros sent x [t0 c0| |k v h| |t0| ] H; try exact I; cbn [ev_justified] in *.
  destruct H as (b & vals & a & A & B). exists b, vals, a. split; [apply in_app_iff; left; exact A|exact B].
Qed.

Lemma epl_receive_events : forall R sent m st dr start ack bytes now nonce R',
  0 <= f0 -> 4 * Z.of_nat nh <= 65535 -> epl_sent_ok nh f0 sent -> epl_receiver_ok nh R sent -> u_handles R = hs ->
  m_body m = Input st dr start ack bytes -> epl_packet_ok nh f0 R sent m ->
  handle_message dbg now nonce m R = Ok R' ->
  forall k v h, In (EvInput k v h) (u_event_queue R') ->
    In (EvInput k v h) (u_event_queue R) \/ ev_justified sent (EvInput k v h).
Proof.
  intros R sent m st dr start ack bytes now nonce R' H0 Hnh Hsent HR Hhs Hb Hp H k v h X.
  destruct (epl_handle_input_events _ _ _ _ _ _ _ _ _ _ _ Hb H k v h X)
    as [Y|(ref & ins & j & inp & vals & a & Hs & El & Ed & Ej & Ek & Et & Ev & Ehd)]; [left; exact Y|right].
  apply (epl_packet_ok_is nh f0 R sent m _ _ _ _ _ Hb) in Hp. destruct Hp as (a0 & frames & c & base & Hp).
  rewrite (epl_decode_packet_ok dbg nh f0 R sent start bytes ref a0 frames c base H0 Hnh Hsent HR Hp El) in Ed.
  inversion Ed; subst ins. destruct Hp as (Es & _ & _ & Hst & _).
  destruct (epl_segment_frame nh f0 sent a0 frames c j inp Hsent Es Ej) as (Hin & Hmax).
  rewrite Hst, eps_i32_exact in Ek by (unfold TS_I32_MIN; lia). injection Ek as <-.
  cbn [ev_justified]. exists inp, vals, a. split; [exact Hin|].
  destruct HR as (_ & _ & _ & Hh & _). rewrite Hh in Et. rewrite Hhs in Ehd. auto.
Qed.

Definition epl_events_ok (R : ep) (sent : list ibytes) : Prop :=
  u_handles R = hs /\ Forall (ev_justified sent) (u_event_queue R).

Lemma ev_justified_inputs : forall sent q, (forall k v h, In (EvInput k v h) q -> ev_justified sent (EvInput k v h)) ->
  Forall (ev_justified sent) q.
Proof.
  intros sent q H. apply Forall_forall. intros [t0 c0| |k v h| |t0| ] Hin; try exact I. apply H. exact Hin.
Qed.

Theorem epl_events_step : forall S R sent S' R' sent',
  epl_inv nh f0 S R sent -> epl_events_ok R sent -> epl_step dbg nh f0 (S, R, sent) (S', R', sent') ->
  epl_events_ok R' sent'.
Proof.
  intros S R sent S' R' sent' HI (Hhs & HE) Hstep.
  pose proof HI as (H0 & Hnh1 & Hnh & Hsent & HS & HR & Hle & HPS & HPR).
  rewrite Forall_forall in HE.
  inversion Hstep as [| |? ? ? now nonce cs ? out Hp|? ? ? now nonce m ? out Hin Hm|]; subst.
  - split; [exact Hhs|]. apply Forall_forall. intros e Hin. apply ev_justified_mono. exact (HE e Hin).
  - split; [exact Hhs|]. apply Forall_forall. exact HE.
  - destruct (epl_poll_at_running _ _ _ _ _ _ (step_inv _ _ _ _ _ Hp) (proj1 HR)) as (t & bs & i & r & _ & _ & -> & ->).
    split; [exact Hhs|constructor].
  - destruct (step_inv _ _ _ _ _ Hm) as (E & _).
    rewrite Forall_forall in HPS. pose proof (HPS m Hin) as Hpk.
    destruct (eps_input_body_dec m) as [(st & dr & sf & af & bytes & Eb)|Hni].
    + destruct (epl_input_exit_static _ _ _ _ _ _ _ _ _ (eps_input_exits _ _ _ _ _ _ _ _ _ _ _ Eb E)) as (_ & _ & Hh & _).
      split; [congruence|]. apply ev_justified_inputs. intros k v h X.
      destruct (epl_receive_events R sent' m st dr sf af bytes now nonce R' H0 Hnh Hsent HR Hhs Eb Hpk E k v h X) as [Y|Y];
        [exact (HE _ Y)|exact Y].
    + destruct (epl_other_keeps _ _ _ _ _ _ Hni E) as (_ & Hh & _).
      split; [congruence|]. apply ev_justified_inputs. intros k v h X.
      exact (HE _ (epl_no_new_input_in _ _ _ _ _ (proj2 (epl_other_queues _ _ _ _ _ _ Hni E)) X)).
  - split; [exact Hhs|]. apply Forall_forall. exact HE.
Qed.

Theorem epl_events_steps : forall x y, epl_steps dbg nh f0 x y ->
  epl_inv nh f0 (fst (fst x)) (snd (fst x)) (snd x) -> epl_events_ok (snd (fst x)) (snd x) ->
  epl_events_ok (snd (fst y)) (snd y).
Proof.
  intros x y H. induction H as [x|[[S R] sent] [[S1 R1] sent1] z H1 H2 IH]; intros HI HE; [exact HE|].
  cbn [fst snd] in *. apply IH.
  - exact (epl_inv_step dbg nh f0 _ _ _ _ _ _ HI H1).
  - exact (epl_events_step _ _ _ _ _ _ HI HE H1).
Qed.

End LinkEvents.

(* the values send_input serialises, in handle order: those of the players 0 .. num_players-1 the map mentions *)
Definition sent_values (hs : list Z) (inputs : list (Z * (Z * Z))) : list Z :=
  flat_map (fun h => match alookup h inputs with Some (_, v) => [v] | None => [] end) hs.

Lemma le_value_bytes : forall v rest, 0 <= v < 4294967296 -> le_value (le_bytes v ++ rest) = Some v.
Proof.
  intros v rest Hv. unfold le_bytes. cbn [app le_value]. f_equal.
  rewrite !Z2N.id by (apply Z.mod_pos_bound; lia). lia.
Qed.

Lemma from_inputs_go_bytes : forall hs inputs frame acc f b,
  from_inputs_go hs inputs frame acc = Ok (f, b) -> b = acc ++ concat (map le_bytes (sent_values hs inputs)).
Proof.
  induction hs as [|h r IH]; intros inputs frame acc f b H; cbn [from_inputs_go sent_values flat_map] in *.
  - inversion H; subst. cbn. rewrite app_nil_r. reflexivity.
  - destruct (alookup h inputs) as [[f0 v]|] eqn:E.
    + destruct ((frame =? NULL) || (f0 =? NULL) || (frame =? f0)); [|discriminate].
      apply IH in H. rewrite H. cbn [app map concat]. fold (sent_values r inputs). rewrite <- app_assoc. reflexivity.
    + apply IH in H. exact H.
Qed.

Lemma player_values_concat : forall vs rest, Forall (fun v => 0 <= v < 4294967296) vs ->
  player_values (length vs) 4 (concat (map le_bytes vs) ++ rest) = Some vs.
Proof.
  induction vs as [|v vs IH]; intros rest H; cbn [length player_values map concat]; [reflexivity|].
  inversion H as [|? ? Hv Hvs]; subst.
  assert (E1 : firstn 4 ((le_bytes v ++ concat (map le_bytes vs)) ++ rest) = le_bytes v) by reflexivity.
  assert (E2 : skipn 4 ((le_bytes v ++ concat (map le_bytes vs)) ++ rest) = concat (map le_bytes vs) ++ rest) by reflexivity.
  rewrite E1, E2. replace (le_bytes v) with (le_bytes v ++ []) by apply app_nil_r.
  rewrite (le_value_bytes v [] Hv), (IH rest Hvs). reflexivity.
Qed.

Lemma concat_le_length : forall vs, length (concat (map le_bytes vs)) = (4 * length vs)%nat.
Proof. induction vs as [|v vs IH]; cbn [map concat length]; [reflexivity|]. rewrite app_length, IH. cbn [le_bytes length]. lia. Qed.

Theorem to_player_inputs_from_inputs : forall np inputs f b,
  from_inputs np inputs = Ok (f, b) ->
  let vs := sent_values (map Z.of_nat (seq 0 (Z.to_nat np))) inputs in
  vs <> [] -> Forall (fun v => 0 <= v < 4294967296) vs ->
  to_player_inputs (length vs) b = Some vs.
Proof.
  intros np inputs f b H vs Hne Hr. unfold from_inputs in H. apply from_inputs_go_bytes in H. cbn [app] in H.
  fold vs in H. subst b.
  assert (Hpos : (0 < length vs)%nat) by (destruct vs; [congruence|cbn [length]; lia]).
  rewrite (epl_player_chunks (length vs) 4 _ Hpos (concat_le_length vs)).
  rewrite <- (app_nil_r (concat (map le_bytes vs))). apply player_values_concat. exact Hr.
Qed.
