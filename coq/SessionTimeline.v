(* The game's input history, followed through the request lists (replay_hist), against the inputs the session
   holds.  The per-queue invariant GQ: every simulated frame whose input is known and not flagged as mispredicted
   carries that input, every other simulated frame carries the prediction the queue would make now.  On it rest:
   every AdvanceFrame request is truthful (C03); what goes to the remote players and to the spectators is what is
   held (C01, C06); the run theorems, stated once for every saving mode (section Generic) and instantiated here
   for dense saving, with C09's premise at the end. *)
From GGRS Require Import Base Consts Queue QueueProofs QueueTheorems Sync P2P Session SessionProofs SessionProgress.
From GGRS Require Import LiaSetup.
Open Scope Z_scope.

Fixpoint replay_hist (G : ghist) (R : list request) : ghist :=
  match R with
  | [] => G
  | RSave _ :: r => replay_hist G r
  | RLoad f :: r => replay_hist (firstn (Z.to_nat f) G) r
  | RAdvance ins :: r => replay_hist (G ++ [ins]) r
  end.

Lemma replay_hist_app : forall R1 R2 G, replay_hist G (R1 ++ R2) = replay_hist (replay_hist G R1) R2.
Proof. induction R1 as [|[f|f|ins] R1 IH]; intros R2 G; cbn [app replay_hist]; auto. Qed.

(* the AdvanceFrame requests of a request list, each with the frame it simulates (the length of the game's
   history at that point: a Load truncates it, an Advance extends it) - first simulations and re-simulations alike *)
Fixpoint adv_frames (G : ghist) (R : list request) : list (Z * frame_inputs) :=
  match R with
  | [] => []
  | RSave _ :: r => adv_frames G r
  | RLoad f :: r => adv_frames (firstn (Z.to_nat f) G) r
  | RAdvance ins :: r => (Z.of_nat (length G), ins) :: adv_frames (G ++ [ins]) r
  end.

Lemma adv_frames_app : forall R1 R2 G, adv_frames G (R1 ++ R2) = adv_frames G R1 ++ adv_frames (replay_hist G R1) R2.
Proof.
  induction R1 as [|[f|f|ins] R1 IH]; intros R2 G; cbn [app replay_hist adv_frames]; auto.
  rewrite IH. reflexivity.
Qed.

Lemma fi_eqb_eq : forall a b, fi_eqb a b = true -> a = b.
Proof.
  induction a as [|[v s] a IH]; intros [|[v' s'] b] H; cbn [fi_eqb] in H; try discriminate; [reflexivity|].
  apply andb_prop in H. destruct H as [H H3]. apply andb_prop in H. destruct H as [H1 H2].
  f_equal; [|apply IH; exact H3]. f_equal; [lia|]. destruct s, s'; cbn in H2; congruence.
Qed.

Lemma gh_eqb_eq : forall a b, gh_eqb a b = true -> a = b.
Proof.
  induction a as [|x a IH]; intros [|y b] H; cbn [gh_eqb] in H; try discriminate; [reflexivity|].
  apply andb_prop in H. destruct H as [H1 H2]. f_equal; [apply fi_eqb_eq; exact H1|apply IH; exact H2].
Qed.

Lemma exec_hist : forall w R g g', exec w g R = Some g' -> g_hist g' = replay_hist (g_hist g) R.
Proof.
  induction R as [|r R IH]; intros g g' H; cbn [exec] in H; [injection H as <-; reflexivity|].
  destruct (exec_req w g r) as [g1|] eqn:E; [|discriminate]. rewrite (IH g1 g' H).
  destruct r as [f|f|ins]; cbn [exec_req replay_hist] in *.
  - destruct (f =? gframe g); [|discriminate]. injection E as <-. reflexivity.
  - destruct (nth _ (g_cells g) _) as [cf ch]. destruct (_ && _) eqn:Ec; [|discriminate]. injection E as <-. cbn [g_hist].
    apply andb_prop in Ec. destruct Ec as [_ Ec]. apply gh_eqb_eq in Ec. rewrite Ec. reflexivity.
  - injection E as <-. reflexivity.
Qed.

Lemma exec_outs_hist : forall w outs g g', exec_outs w g outs = Some g' ->
  g_hist g' = replay_hist (g_hist g) (concat (map (fun o => o_requests (fst o)) outs)).
Proof.
  induction outs as [|[o r] outs IH]; intros g g' H; cbn [exec_outs map concat fst] in *; [injection H as <-; reflexivity|].
  destruct (exec w g (o_requests o)) as [g1|] eqn:E; [|discriminate].
  rewrite replay_hist_app, <- (exec_hist _ _ _ _ E). apply IH. exact H.
Qed.

Definition fval (fi : frame_inputs) (h : nat) : Z := fst (nth h fi (0, Confirmed)).

Definition gvalL (G : ghist) (f : Z) (h : nat) : Z := fval (nth (Z.to_nat f) G []) h.

Definition glen (G : ghist) : Z := Z.of_nat (length G).

Lemma gvalL_app_old : forall G x f h, 0 <= f < glen G -> gvalL (G ++ [x]) f h = gvalL G f h.
Proof. intros G x f h Hf. unfold gvalL, glen in *. rewrite app_nth1 by lia. reflexivity. Qed.

Lemma gvalL_app_new : forall G x h, gvalL (G ++ [x]) (glen G) h = fval x h.
Proof. intros G x h. unfold gvalL, glen. rewrite Nat2Z.id, app_nth2, Nat.sub_diag by lia. reflexivity. Qed.

Lemma gvalL_firstn : forall G n f h, 0 <= f < n -> n <= glen G -> gvalL (firstn (Z.to_nat n) G) f h = gvalL G f h.
Proof.
  intros G n f h Hf Hn. unfold gvalL, glen in *.
  rewrite <- (firstn_skipn (Z.to_nat n) G) at 2. rewrite app_nth1; [reflexivity|].
  rewrite firstn_length. lia.
Qed.

Lemma glen_app : forall G x, glen (G ++ [x]) = glen G + 1.
Proof. intros. unfold glen. rewrite app_length. cbn. lia. Qed.

Lemma glen_firstn : forall G n, 0 <= n <= glen G -> glen (firstn (Z.to_nat n) G) = n.
Proof. intros G n H. unfold glen in *. rewrite firstn_length. lia. Qed.

Lemma Forall2_pointwise {A B} (R : A -> B -> Prop) : forall l1 l2, length l1 = length l2 ->
  (forall i a b, nth_error l1 i = Some a -> nth_error l2 i = Some b -> R a b) -> Forall2 R l1 l2.
Proof.
  induction l1 as [|x l1 IH]; intros [|y l2] Hl Hp; try discriminate; constructor.
  - apply (Hp O); reflexivity.
  - apply IH; [cbn in Hl; lia|]. intros i a b Ha Hb. apply (Hp (S i)); assumption.
Qed.

(* a queue that is not predicting holds every simulated frame's input (between calls) *)
Definition PNl (c : Z) (qs : list queue) (gs : list ghost) : Prop :=
  forall h q gh, nth_error qs h = Some q -> nth_error gs h = Some gh -> pi_frame (q_pred q) = NULL -> c <= hlen (fst gh).

Lemma PNl_grows : forall c qs gs qs' gs', grows_all c qs gs qs' gs' -> PNl c qs gs -> PNl c qs' gs'.
Proof.
  intros c qs gs qs' gs' Hg HPN h q' gh' B C Hn. destruct (Hg h q' gh' B C) as (q & gh & B0 & C0 & (F & (P & _) & Hh)).
  rewrite P in Hn. pose proof (HPN h q gh B0 C0 Hn) as X.
  destruct Hh as [->|(_ & _ & _ & ext & ->)]; [exact X|]. unfold hlen in *. rewrite app_length. lia.
Qed.

Lemma send_ready_outgoing_out : forall p o p' o' gs,
  send_ready_outgoing p o = Ok (p', o') -> OIg p gs ->
  (forall h, In h (local_handles p) -> exists gh, nth_error gs (Z.to_nat h) = Some gh) ->
  OIg p' gs /\ exists rounds, o_remote_sends o' = o_remote_sends o ++ rounds /\ rounds_ok (local_handles p) gs rounds.
Proof.
  intros p o p' o' gs E HO Hgs. unfold send_ready_outgoing in E.
  destruct (ps_remotes p) as [|e0 rest] eqn:Er.
  - injection E as <- <-. split; [exact HO|]. exists []. rewrite app_nil_r. split; [reflexivity|constructor].
  - assert (Hr : ps_remotes p <> []) by (rewrite Er; discriminate). specialize (HO Hr).
    destruct (local_handles p) as [|h0 hs] eqn:El.
    + injection E as <- <-. split; [intros _; exact HO|]. exists []. rewrite app_nil_r. split; [reflexivity|constructor].
    + rewrite <- El in E, Hgs |- *.
      destruct (send_ready_go_out _ _ _ _ _ gs E HO ltac:(rewrite El; discriminate) Hgs) as (HO' & _ & rounds & R1 & _ & _ & R4).
      split; [intros _; exact HO'|]. exists rounds. split; [exact R1|exact R4].
Qed.

(* the boundary half of the invariant: between calls nothing is queued for the remotes, and every local player
   holds exactly the frames up to the last one sent *)
Definition OB (p : p2p) (gs : list ghost) : Prop :=
  ps_remotes p <> [] -> local_handles p <> [] ->
  ps_outgoing p = [] /\
  forall h gh, In h (local_handles p) -> nth_error gs (Z.to_nat h) = Some gh -> hlen (fst gh) = ps_last_sent_out p + 1.

Definition OIb (p : p2p) (gs : list ghost) : Prop := OIg p gs /\ OB p gs.

Lemma OB_same : forall p p' gs gs', OB p gs -> ps_outgoing p' = ps_outgoing p -> ps_last_sent_out p' = ps_last_sent_out p ->
  local_handles p' = local_handles p -> (ps_remotes p' <> [] -> ps_remotes p <> []) ->
  (forall h, In h (local_handles p) ->
     option_map fst (nth_error gs' (Z.to_nat h)) = option_map fst (nth_error gs (Z.to_nat h))) -> OB p' gs'.
Proof.
  intros p p' gs gs' H E1 E2 E3 E4 E5 Hr Hl. rewrite E3 in Hl. destruct (H (E4 Hr) Hl) as (A & B).
  rewrite E1, E2, E3. split; [exact A|]. intros h gh' Hin Hg. pose proof (E5 h Hin) as X. unfold ghost in *. rewrite Hg in X.
  cbn [option_map] in X. destruct (nth_error gs (Z.to_nat h)) as [gh|] eqn:G0; [|discriminate]. cbn [option_map] in X.
  injection X as X. rewrite X. exact (B h gh Hin G0).
Qed.

Lemma map_fst_opt : forall (gs gs' : list ghost) n, map fst gs' = map fst gs ->
  option_map fst (nth_error gs' n) = option_map fst (nth_error gs n).
Proof.
  intros gs gs' n E. pose proof (f_equal (fun l => nth_error l n) E) as X. cbv beta in X. unfold ghost in *.
  rewrite !nth_error_map in X. exact X.
Qed.

Lemma OIb_same_local : forall p p' gs gs', OIb p gs -> ps_outgoing p' = ps_outgoing p ->
  ps_last_sent_out p' = ps_last_sent_out p -> local_handles p' = local_handles p ->
  (ps_remotes p' <> [] -> ps_remotes p <> []) ->
  (forall h, In h (local_handles p) ->
     option_map fst (nth_error gs' (Z.to_nat h)) = option_map fst (nth_error gs (Z.to_nat h))) -> OIb p' gs'.
Proof.
  intros p p' gs gs' (HO & HB) E1 E2 E3 E4 E5. split.
  - intros Hr. exact (OI_same_local p p' gs gs' (HO (E4 Hr)) E1 E2 E3 E5).
  - exact (OB_same p p' gs gs' HB E1 E2 E3 E4 E5).
Qed.

Lemma send_ready_outgoing_done : forall p o p' o' gs H,
  send_ready_outgoing p o = Ok (p', o') -> OIg p gs ->
  (forall h, In h (local_handles p) -> exists gh, nth_error gs (Z.to_nat h) = Some gh) ->
  (forall h gh, In h (local_handles p) -> nth_error gs (Z.to_nat h) = Some gh -> hlen (fst gh) = H) ->
  ps_remotes p <> [] -> local_handles p <> [] -> ps_outgoing p' = [] /\ ps_last_sent_out p' = H - 1.
Proof.
  intros p o p' o' gs H E HO Hgs Hall Hr Hl. unfold send_ready_outgoing in E.
  destruct (ps_remotes p) as [|e0 rest] eqn:Er; [congruence|].
  destruct (local_handles p) as [|h0 hs] eqn:El; [congruence|]. rewrite <- El in E, Hgs, Hall, Hl.
  apply (send_ready_go_done _ _ _ _ _ gs H E (HO ltac:(rewrite Er; discriminate)) Hl Hgs); [lia|exact Hall].
Qed.

Lemma register_local_progress : forall sp w d p gs o,
  QSg sp w d p gs -> all_clean (s_queues (ps_sync p)) ->
  (forall h, In h (local_handles p) -> exists pi, assoc_get (ps_pending p) h = Some pi) ->
  exists p' o' gs', register_local_inputs p o = Ok (p', o') /\ registered sp w d p gs p' gs' /\
    o_requests o' = o_requests o /\ o_spec_sends o' = o_spec_sends o /\
    (OIg p gs -> OIb p' gs' /\ exists rounds, o_remote_sends o' = o_remote_sends o ++ rounds /\
                                             rounds_ok (local_handles p) gs' rounds).
Proof.
  intros sp w d p gs o HQS Hcl Hpend.
  destruct (register_locals_progress sp w d p gs o HQS Hcl Hpend) as (p4 & p5 & o5 & gs4 & E4 & E5 & O5 & E45 & R4 & HO4).
  assert (Hf5 : o_requests o5 = o_requests o /\ o_spec_sends o5 = o_spec_sends o)
    by (destruct (send_ready_outgoing_shape _ _ _ _ E5) as (og & ls & rs & -> & ->); repeat split).
  pose proof (local_handles_rest _ _ (rg_rest R4)) as Hlh4. pose proof (rg_qs R4) as HQS4. pose proof (rg_done R4) as Hdone.
  exists p5, o5, gs4. split; [exact E45|]. split; [exact (registered_out R4 O5)|]. split; [apply Hf5|]. split; [apply Hf5|].
  intros HO. pose proof (QS_local_gs _ _ _ _ _ HQS4) as Hgs4.
  destruct (send_ready_outgoing_out p4 o p5 o5 gs4 E5 (HO4 HO) Hgs4) as (HO5 & rounds & Q1 & Q2).
  rewrite Hlh4 in Q2. split; [split; [exact HO5|]|exists rounds; split; [exact Q1|exact Q2]].
  (* everything registered has been sent *)
  intros Hr5 Hl5. rewrite O5 in Hr5, Hl5. change (ps_remotes p4 <> []) in Hr5. change (local_handles p4 <> []) in Hl5.
  assert (Hall4 : forall h gh, In h (local_handles p4) -> nth_error gs4 (Z.to_nat h) = Some gh ->
                               hlen (fst gh) = s_current (ps_sync p) + d + 1).
  { intros h gh Hin Hg. rewrite Hlh4 in Hin.
    destruct (nth_error_some_len (s_queues (ps_sync p4)) gs4 (Z.to_nat h) gh (QsI_length _ _ _ _ (qs_qs _ _ _ _ HQS4)) Hg) as (q & Hq).
    exact (proj1 (Hdone h Hin q gh Hq Hg)). }
  destruct (send_ready_outgoing_done p4 o p5 o5 gs4 _ E5 (HO4 HO) Hgs4 Hall4 Hr5 Hl5) as (Y1 & Y2).
  split; [exact Y1|]. intros h gh Hin Hg. rewrite Y2. rewrite O5 in Hin. rewrite (Hall4 h gh Hin Hg). lia.
Qed.

(* what one advance_frame sends to the remote players *)
Definition sends_adv (p : p2p) (gs gs' : list ghost) (p' : p2p) (o : pout) : Prop :=
  OIb p gs -> OIb p' gs' /\ rounds_ok (local_handles p) gs' (o_remote_sends o).

Lemma OI_start : forall sp n w d kinds eps nspec, OIg (session_start n w sp d kinds eps nspec) (repeat ([], 0) (Z.to_nat n)).
Proof.
  intros sp n w d kinds eps nspec _. constructor.
  - constructor.
  - cbn. unfold NULL. lia.
  - intros f m H. cbn in H. discriminate.
  - intros h gh _ Hg. apply nth_error_In, repeat_spec in Hg. subst gh. cbn [fst]. split; [cbn; unfold hlen, NULL; cbn; lia|].
    intros f Hf. cbn in Hf. assert ((f <? hlen []) = false) as -> by (unfold hlen, NULL in *; cbn in *; lia). unfold out_entry. cbn. reflexivity.
  - intros f m H. cbn in H. discriminate.
Qed.

Lemma OB_start : forall sp n w d kinds eps nspec, OB (session_start n w sp d kinds eps nspec) (repeat ([], 0) (Z.to_nat n)).
Proof.
  intros sp n w d kinds eps nspec _ _. split; [reflexivity|].
  intros h gh _ Hg. apply nth_error_In, repeat_spec in Hg. subst gh. reflexivity.
Qed.

Definition grows_gs (gs gs' : list ghost) : Prop :=
  length gs' = length gs /\
  forall h g', nth_error gs' h = Some g' -> exists g ext, nth_error gs h = Some g /\ fst g' = fst g ++ ext.

Lemma grows_gs_refl : forall gs, grows_gs gs gs.
Proof. intros gs. split; [reflexivity|]. intros h g' H. exists g', []. rewrite app_nil_r. split; [exact H|reflexivity]. Qed.

Lemma grows_gs_trans : forall a b c, grows_gs a b -> grows_gs b c -> grows_gs a c.
Proof.
  intros a b c (L1 & H1) (L2 & H2). split; [congruence|]. intros h g' H.
  destruct (H2 h g' H) as (g1 & e1 & A1 & B1). destruct (H1 h g1 A1) as (g0 & e0 & A0 & B0).
  exists g0, (e0 ++ e1). split; [exact A0|]. rewrite B1, B0, app_assoc. reflexivity.
Qed.

Lemma held_at_stable : forall gs gs' f, grows_gs gs gs' -> 0 <= f ->
  Forall (fun g : ghost => f < hlen (fst g)) gs -> held_at gs' f = held_at gs f.
Proof.
  intros gs gs' f (Hl & Hg) Hf Hb. unfold held_at.
  apply (nth_ext _ _ (mkpi 0 0) (mkpi 0 0)); [rewrite !map_length; exact Hl|].
  intros n Hn. rewrite map_length in Hn.
  destruct (nth_error gs' n) as [g'|] eqn:E'; [|apply nth_error_None in E'; lia].
  destruct (Hg n g' E') as (g0 & ext & E0 & Ex).
  rewrite (nth_error_nth _ _ _ (map_nth_error _ _ _ E')), (nth_error_nth _ _ _ (map_nth_error _ _ _ E0)).
  f_equal. rewrite Ex. apply hval_app_l. rewrite Forall_forall in Hb. pose proof (Hb g0 (nth_error_In _ _ E0)). lia.
Qed.

Lemma hist_step_grows_gs : forall d pend t gs gs', hist_step d pend t gs gs' -> length gs' = length gs -> grows_gs gs gs'.
Proof.
  intros d pend t gs gs' H Hl. split; [exact Hl|]. intros h g' A. destruct (H h g' A) as (g & B & C). exists g.
  destruct C as [->|(_ & pi & k & _ & -> & _)]; [exists []; rewrite app_nil_r; split; [exact B|reflexivity]|].
  eexists. split; [exact B|reflexivity].
Qed.

Lemma rounds_ok_grows : forall L gs gs' R, grows_gs gs gs' -> rounds_ok L gs R -> rounds_ok L gs' R.
Proof.
  intros L gs gs' R (_ & Hg) H. unfold rounds_ok in *. eapply Forall_impl; [|exact H].
  intros m (f & Hf & Hr). exists f. split; [exact Hf|]. intros h gh' Hin Hn.
  destruct (Hg _ _ Hn) as (gh & ext & A & B). destruct (Hr h gh Hin A) as (R1 & R2).
  rewrite B. split; [unfold hlen in *; rewrite app_length; lia|]. rewrite hval_app_l by lia. exact R2.
Qed.

Lemma map_fst_grows_gs : forall gs gs' : list ghost, map fst gs' = map fst gs -> grows_gs gs gs'.
Proof.
  intros gs gs' Hm. split.
  - pose proof (f_equal (@length _) Hm) as X. rewrite !map_length in X. exact X.
  - intros h g' Hn. destruct (map_fst_nth gs gs' h g' Hm Hn) as (g0 & A & B). exists g0, []. rewrite app_nil_r. split; [exact A|]. congruence.
Qed.

Lemma rounds_ok_ext : forall L gs gs' R, map fst gs' = map fst gs -> rounds_ok L gs R -> rounds_ok L gs' R.
Proof. intros L gs gs' R Hm. apply rounds_ok_grows. apply map_fst_grows_gs. exact Hm. Qed.

(* what one call hands to the spectators: the next n frames after those already sent, consecutive,
   each with the inputs held for it (n = 0 for every call other than a successful advance_frame);
   every frame sent is one for which every player's input is already held.
   gs = the histories held when the call returns (the broadcast of a lockstep call includes the frame whose
   local input that same call registered) *)
Definition spec_step (p : p2p) (gs : list ghost) (o : pout) (p' : p2p) : Prop :=
  ps_spectators p' = ps_spectators p /\
  exists n : nat,
    o_spec_sends o = (match ps_spectators p with [] => [] | _ =>
                        if existsb (fun b => b) (ps_spectators p)
                        then map (fun f => (f, held_at gs f)) (zrange_from (ps_next_spec p) n) else [] end) /\
    ps_next_spec p' = (match ps_spectators p with [] => ps_next_spec p | _ => ps_next_spec p + Z.of_nat n end) /\
    (ps_spectators p <> [] -> Forall (fun g : ghost => ps_next_spec p + Z.of_nat n <= hlen (fst g)) gs).

Lemma spec_step_none : forall p gs o p', spec_ok p gs -> ps_spectators p' = ps_spectators p -> ps_next_spec p' = ps_next_spec p ->
  o_spec_sends o = [] -> spec_step p gs o p'.
Proof.
  intros p gs o p' Hs A B C. split; [exact A|]. exists O. rewrite C, B. cbn [zrange_from map Z.of_nat].
  split; [destruct (ps_spectators p); [reflexivity|]; destruct (existsb _ _); reflexivity|].
  split; [destruct (ps_spectators p); [reflexivity|lia]|].
  intros Hne. destruct (Hs Hne) as (_ & _ & X). eapply Forall_impl; [|exact X]. cbv beta. intros g Hg. lia.
Qed.

Lemma cf_bound : forall sp w d p gs cf, QSg sp w d p gs -> confirmed_frame p = Ok cf -> Forall (fun g : ghost => cf + 1 <= hlen (fst g)) gs.
Proof.
  intros sp w d p gs cf HQS E. unfold confirmed_frame in E.
  destruct (cf_fold (ps_status p) I32MAX (qs_conn _ _ _ _ HQS)) as (_ & B & _).
  set (m := fold_left _ _ _) in *. destruct (m <? I32MAX); [|discriminate]. injection E as <-.
  pose proof (cf_le_all _ _ _ (qs_last _ _ _ _ HQS) B) as X. eapply Forall_impl; [|exact X]. cbv beta. intros g Hg. lia.
Qed.

Lemma confirmed_frame_grows : forall sp w d p gs p' gs' cf cf',
  QSg sp w d p gs -> QSg sp w d p' gs' -> grows_gs gs gs' ->
  confirmed_frame p = Ok cf -> confirmed_frame p' = Ok cf' -> cf <= cf'.
Proof.
  intros sp w d p gs p' gs' cf cf' HQS B (Hl & Hg) Ecf Ecf'.
  unfold confirmed_frame in Ecf, Ecf'.
  destruct (cf_fold (ps_status p) I32MAX (qs_conn _ _ _ _ HQS)) as (_ & B1 & _).
  destruct (cf_fold (ps_status p') I32MAX (qs_conn _ _ _ _ B)) as (_ & _ & C2).
  set (m := fold_left _ (ps_status p) _) in *. set (m' := fold_left _ (ps_status p') _) in *.
  destruct (m <? I32MAX) eqn:Em; [|discriminate]. injection Ecf as <-.
  destruct (m' <? I32MAX) eqn:Em'; [|discriminate]. injection Ecf' as <-.
  destruct C2 as [C2|C2]; [lia|]. apply Exists_exists in C2. destruct C2 as (st' & Hin & ->).
  apply In_nth_error in Hin. destruct Hin as (h & Hh).
  pose proof (qs_last _ _ _ _ B) as HL'. pose proof (qs_last _ _ _ _ HQS) as HL.
  destruct (nth_error_some_len gs' (ps_status p') h st' (eq_sym (Forall2_len _ _ _ HL')) Hh) as (g1 & Hg1).
  pose proof (Forall2_nth _ _ _ _ _ _ HL' Hh Hg1) as R1. cbv beta in R1.
  destruct (Hg h g1 Hg1) as (g0 & ext & Hg0 & Hext).
  assert (exists st0, nth_error (ps_status p) h = Some st0) as (st0 & Hst0).
  { destruct (nth_error (ps_status p) h) eqn:X; [eauto|]. exfalso. apply nth_error_None in X.
    pose proof (Forall2_len _ _ _ HL) as Hl0. assert (h < length gs)%nat as Y by (apply nth_error_Some; congruence). unfold ghost in *. lia. }
  pose proof (Forall2_nth _ _ _ _ _ _ HL Hst0 Hg0) as R0. cbv beta in R0.
  rewrite Forall_forall in B1. pose proof (B1 st0 (nth_error_In _ _ Hst0)).
  rewrite R1, Hext. unfold hlen in *. rewrite app_length. lia.
Qed.

Lemma spec_sent_step : forall p gs gs' cf o p', spec_ok p gs -> Forall (fun g : ghost => cf + 1 <= hlen (fst g)) gs ->
  grows_gs gs gs' -> ps_spectators p' = ps_spectators p ->
  o_spec_sends o = spec_sent p gs cf -> ps_next_spec p' = next_spec_after p cf -> spec_step p gs' o p'.
Proof.
  intros p gs gs' cf o p' Hs Hcf Hgr A B C. split; [exact A|]. exists (Z.to_nat (cf - ps_next_spec p + 1)).
  unfold spec_sent, next_spec_after in *. rewrite B, C.
  assert (Hbound : ps_spectators p <> [] -> Forall (fun g : ghost => ps_next_spec p + Z.of_nat (Z.to_nat (cf - ps_next_spec p + 1)) <= hlen (fst g)) gs).
  { intros Hne. destruct (Hs Hne) as (_ & _ & X). apply Forall_forall. intros g Hg. rewrite Forall_forall in X, Hcf.
    pose proof (X g Hg). pose proof (Hcf g Hg). lia. }
  split.
  - destruct (ps_spectators p) as [|b bs] eqn:Esp; [reflexivity|]. destruct (existsb _ _); [|reflexivity].
    apply map_ext_in. intros f Hf. apply zrange_in in Hf. f_equal. symmetry.
    destruct (Hs ltac:(rewrite Esp; discriminate)) as (S1 & _).
    apply held_at_stable; [exact Hgr|lia|].
    eapply Forall_impl; [|exact (Hbound ltac:(discriminate))]. cbv beta. intros g0 Hg0. lia.
  - split; [destruct (ps_spectators p); [reflexivity|lia]|].
    intros Hne. specialize (Hbound Hne). destruct Hgr as (Hl & Hg). apply Forall_forall. intros g' Hg'.
    apply In_nth_error in Hg'. destruct Hg' as (h & Hh). destruct (Hg h g' Hh) as (g0 & ext & E0 & Ex).
    rewrite Forall_forall in Hbound. pose proof (Hbound g0 (nth_error_In _ _ E0)). rewrite Ex. unfold hlen in *. rewrite app_length. lia.
Qed.

Lemma quiet_spec_step : forall p p' gs', spec_ok p gs' -> quiet p p' -> spec_step p gs' out0 p'.
Proof. intros p p' gs' Hs (_ & _ & _ & A & B & _). exact (spec_step_none p gs' out0 p' Hs A B eq_refl). Qed.

Lemma quiet_sends_adv : forall p p' gs gs', quiet p p' ->
  (forall h, In h (local_handles p) ->
     option_map fst (nth_error gs' (Z.to_nat h)) = option_map fst (nth_error gs (Z.to_nat h))) ->
  sends_adv p gs gs' p' out0.
Proof.
  intros p p' gs gs' Hq Hloc HO. split; [|constructor]. pose proof (quiet_local_handles _ _ Hq) as Hlh.
  destruct Hq as (_ & _ & _ & _ & _ & A & B & C). exact (OIb_same_local p p' gs gs' HO A B Hlh C Hloc).
Qed.

(* adv_frames over the outputs of a run *)
Fixpoint all_adv_frames (G : ghist) (outs : list (pout * apires)) : list (Z * frame_inputs) :=
  match outs with
  | [] => []
  | o :: r => adv_frames G (o_requests (fst o)) ++ all_adv_frames (replay_hist G (o_requests (fst o))) r
  end.

(* an input handed out as Confirmed is the input held for that frame and player *)
Definition confirmed_ok (gs : list ghost) (fi : Z * frame_inputs) : Prop :=
  forall h v, nth_error (snd fi) h = Some (v, Confirmed) ->
    exists gh, nth_error gs h = Some gh /\ 0 <= fst fi < hlen (fst gh) /\ hval (fst gh) (fst fi) = v.

Lemma confirmed_ok_grows : forall gs gs' fi, grows_gs gs gs' -> confirmed_ok gs fi -> confirmed_ok gs' fi.
Proof.
  intros gs gs' fi (Hlen & Hg) H h v Hn. destruct (H h v Hn) as (gh & Eg & Hf & Hv).
  destruct (nth_error gs' h) as [gh'|] eqn:Eg'.
  2:{ apply nth_error_None in Eg'. assert (h < length gs)%nat by (apply nth_error_Some; congruence). lia. }
  destruct (Hg _ _ Eg') as (gh0 & ext & A & B). rewrite Eg in A. injection A as <-.
  exists gh'. split; [reflexivity|]. rewrite B. split; [unfold hlen in *; rewrite app_length; lia|].
  rewrite hval_app_l by lia. exact Hv.
Qed.

Definition all_spec_sends (outs : list (pout * apires)) : list (Z * list pinput) :=
  concat (map (fun o => o_spec_sends (fst o)) outs).

Definition all_sends (outs : list (pout * apires)) : list (list (Z * pinput)) :=
  flat_map (fun oa => o_remote_sends (fst oa)) outs.

(* what one operation does to the held histories *)
Definition op_hist (d : Z) (p : p2p) (o : sop) (gs gs' : list ghost) : Prop :=
  match o with
  | SRemote pl _ v => exists hist low, nth_error gs (Z.to_nat pl) = Some (hist, low) /\
                                       gs' = updz gs (Z.to_nat pl) (hist ++ [v], low)
  | SAdvance => hist_step d (ps_pending p) (local_handles p) gs gs'
  | _ => gs' = gs
  end.

(* the inputs of remote player pl delivered during a run, in order *)
Definition remote_vals (pl : Z) (ops : list sop) : list Z :=
  flat_map (fun o => match o with SRemote pl' _ v => if pl' =? pl then [v] else [] | _ => [] end) ops.

Lemma op_hist_grows : forall d p o gs gs', length gs' = length gs -> op_hist d p o gs gs' -> grows_gs gs gs'.
Proof.
  intros d p o gs gs' Hlen Hop.
  destruct o as [h v|pl f v|ep st|hs|h|h dd|]; cbn [op_hist] in Hop; try (subst gs'; apply grows_gs_refl).
  - destruct Hop as (hist & low & A & ->). split; [exact Hlen|]. intros h g' H.
    assert (Hl : (Z.to_nat pl < length gs)%nat) by (apply nth_error_Some; congruence).
    destruct (Nat.eq_dec (Z.to_nat pl) h) as [<-|Hne].
    + rewrite nth_error_updz_same in H by exact Hl. injection H as <-. exists (hist, low), [v]. split; [exact A|reflexivity].
    + rewrite nth_error_updz_other in H by exact Hne. exists g', []. rewrite app_nil_r. split; [exact H|reflexivity].
  - split; [exact Hlen|]. intros h g' H. destruct (Hop h g' H) as (g0 & A & [B|(_ & pi & k & _ & B & _)]).
    + exists g0, []. rewrite app_nil_r. split; [exact A|exact B].
    + exists g0, (repeat 0 k ++ [pi_val pi]). split; [exact A|exact B].
Qed.

Lemma op_hist_remote : forall sp w d p o gs gs' pl e gh,
  QSg sp w d p gs -> length gs' = length gs -> op_ok p o = true -> op_hist d p o gs gs' ->
  0 <= pl -> nth_error (ps_kinds p) (Z.to_nat pl) = Some (KRemote e) -> nth_error gs (Z.to_nat pl) = Some gh ->
  (exists low', nth_error gs' (Z.to_nat pl) = Some (fst gh ++ remote_vals pl [o], low')) /\
  (forall f v, o = SRemote pl f v -> f = hlen (fst gh)).
Proof.
  intros sp w d p o gs gs' pl e [hist low] HQS Hlen Hok Hop Hpl Hk A. cbn [fst].
  destruct o as [h v|pl' f0 v0|ep st|hs|h|h dd|]; try discriminate Hok; cbn [op_hist] in Hop; cbn [remote_vals flat_map];
    rewrite ?app_nil_r.
  - subst gs'. split; [exists low; exact A|intros f' v' X; discriminate X].
  - destruct Hop as (hist' & low' & A' & ->). destruct (op_ok_remote _ _ _ _ Hok) as (Hpl' & _ & Hf0 & _).
    rewrite (QS_last_added _ _ _ _ _ _ _ _ HQS A') in Hf0.
    destruct (Z.eqb_spec pl' pl) as [->|Hne].
    + rewrite A in A'. injection A' as <- <-. split; [|intros f' v' X; injection X as <- _; lia].
      exists low. apply nth_error_updz_same. apply nth_error_Some. congruence.
    + rewrite app_nil_r. split; [|intros f' v' X; congruence]. exists low. rewrite nth_error_updz_other by lia. exact A.
  - subst gs'. split; [exists low; exact A|intros f' v' X; discriminate X].
  - split; [|intros f' v' X; discriminate X].
    destruct (nth_error gs' (Z.to_nat pl)) as [[hist1 low1]|] eqn:A1.
    2:{ apply nth_error_None in A1. assert (Z.to_nat pl < length gs)%nat by (apply nth_error_Some; congruence). lia. }
    destruct (Hop _ _ A1) as (gh0 & A0 & [B|(Hin & _)]).
    + rewrite A in A0. injection A0 as <-. cbn [fst] in B. exists low1. rewrite B. reflexivity.
    + exfalso. rewrite Z2Nat.id in Hin by lia.
      apply (local_handles_spec p pl (QS_nplayers _ _ _ _ _ HQS)) in Hin. destruct Hin as (_ & Hin). congruence.
Qed.

(* the cells invariant of dense saving in rollback mode (the window is at least one frame) *)
Definition JI1 (w : Z) (p : p2p) (g : game) : Prop := 1 <= w /\ JI w p g.

Section Timeline.
Variable predict : Z -> Z.

Record GQ (c : Z) (G : ghist) (h : nat) (q : queue) (hist : list Z) : Prop := {
  gq_known : forall f, 0 <= f < c -> f < hlen hist -> (q_first_incorrect q = NULL \/ f < q_first_incorrect q) ->
             gvalL G f h = hval hist f;
  gq_pred : q_first_incorrect q = NULL -> forall f, 0 <= f < c -> hlen hist <= f -> gvalL G f h = predval predict hist;
  gq_pv : pi_frame (q_pred q) <> NULL -> q_first_incorrect q = NULL -> pi_val (q_pred q) = predval predict hist;
}.

Definition GIl (c : Z) (G : ghist) (qs : list queue) (gs : list ghost) : Prop :=
  forall h q gh, nth_error qs h = Some q -> nth_error gs h = Some gh -> GQ c G h q (fst gh).

(* what one read of a queue at the current frame returns; a prediction slot already in force is returned as it
   is, so the value is predval only if the slot held that *)
Lemma input_value : forall c L q hist low q' v st,
  QI c L q hist low -> q_first_incorrect q = NULL -> 0 <= c -> L <= c ->
  input predict q c = Ok (q', (v, st)) ->
  q_first_incorrect q' = NULL /\
  ((c < hlen hist /\ v = hval hist c /\ pi_frame (q_pred q') = NULL /\ st = Confirmed) \/
   (hlen hist <= c /\ v = pi_val (q_pred q') /\ pi_frame (q_pred q') <> NULL /\ st = Predicted /\
    ((pi_frame (q_pred q) <> NULL -> pi_val (q_pred q) = predval predict hist) -> v = predval predict hist))).
Proof.
  intros c L q hist low q' v st Hqi Hfi Hc HL E. pose proof (hlen_nonneg hist) as Hnn.
  destruct (qi_input_cases predict c L q hist low Hqi Hfi Hc HL) as [(P1 & Hlt & E')|[(P1 & Hge & E')|(P1 & Hge & E')]];
    rewrite E' in E; injection E as <- <- <-; (split; [exact Hfi|]).
  - left. split; [exact Hlt|]. split; [reflexivity|]. split; [exact P1|reflexivity].
  - right. split; [exact Hge|]. split; [reflexivity|].
    split; [cbn [set_requested_pred q_pred pi_frame]; unfold NULL; lia|]. split; reflexivity.
  - assert (Hact : pi_frame (q_pred q) <> NULL) by (unfold NULL; lia).
    right. split; [exact Hge|]. split; [reflexivity|]. split; [exact Hact|].
    split; [reflexivity|]. intros Hpv. exact (Hpv Hact).
Qed.

Lemma gq_read : forall c L G h q hist low q' ins st,
  QI c L q hist low -> q_first_incorrect q = NULL -> 0 <= c -> L <= c -> glen G = c ->
  GQ c G h q hist -> input predict q c = Ok (q', (fval ins h, st)) ->
  GQ (c + 1) (G ++ [ins]) h q' hist.
Proof.
  intros c L G h q hist low q' ins st Hqi Hfi Hc HL HG [Gk Gp Gv] E.
  destruct (input_value c L q hist low q' _ st Hqi Hfi Hc HL E) as (Hfi' & Hcase).
  constructor.
  - intros f Hf Hfl _.
    destruct (Z.eq_dec f c) as [->|Hne].
    + rewrite <- HG at 1. rewrite gvalL_app_new. destruct Hcase as [(A & B & _)|(A & _)]; [exact B|lia].
    + rewrite gvalL_app_old by lia. apply Gk; [lia|exact Hfl|left; exact Hfi].
  - intros _ f Hf Hfl.
    destruct (Z.eq_dec f c) as [->|Hne].
    + rewrite <- HG at 1. rewrite gvalL_app_new.
      destruct Hcase as [(A & _)|(_ & _ & _ & _ & B)]; [lia|exact (B (fun A => Gv A Hfi))].
    + rewrite gvalL_app_old by lia. apply Gp; [exact Hfi|lia|exact Hfl].
  - intros Hact _. destruct Hcase as [(_ & _ & A & _)|(_ & A & _ & _ & B)]; [congruence|].
    rewrite <- A. exact (B (fun A => Gv A Hfi)).
Qed.

Lemma sync_inputs_pointwise : forall st qs c qs' ins,
  sync_inputs_go predict c qs st = Ok (qs', ins) -> connected st -> length st = length qs ->
  length qs' = length qs /\ length ins = length qs /\
  forall h q q' i, nth_error qs h = Some q -> nth_error qs' h = Some q' -> nth_error ins h = Some i ->
    input predict q c = Ok (q', i).
Proof.
  induction st as [|s st IH]; intros qs c qs' ins E Hcon Hlen.
  - destruct qs; [|discriminate]. cbn in E. injection E as <- <-. repeat split. intros [|h] ? ? ? A; discriminate A.
  - destruct qs as [|q qs]; [discriminate|]. inversion Hcon as [|? ? Hs Hcon']; subst.
    cbn [sync_inputs_go] in E. rewrite Hs in E. cbn [andb] in E.
    destruct (input predict q c) as [[q1 i1]| |] eqn:Ei; cbn [res_bind] in E; try discriminate.
    destruct (sync_inputs_go predict c qs st) as [[qs2 ins2]| |] eqn:Er; cbn [res_bind] in E; try discriminate.
    injection E as <- <-. destruct (IH qs c qs2 ins2 Er Hcon' ltac:(cbn in Hlen; lia)) as (A & B & C).
    split; [cbn; lia|]. split; [cbn; lia|].
    intros [|h] q0 q0' i0 X Y Z; cbn [nth_error] in X, Y, Z.
    + injection X as <-. injection Y as <-. injection Z as <-. exact Ei.
    + exact (C h q0 q0' i0 X Y Z).
Qed.

Lemma sync_inputs_nth : forall st qs gs c L qs' ins h,
  sync_inputs_go predict c qs st = Ok (qs', ins) -> QsI c L qs gs -> all_clean qs ->
  connected st -> length st = length qs -> (h < length qs)%nat ->
  exists q gh q' i, nth_error qs h = Some q /\ nth_error gs h = Some gh /\ nth_error qs' h = Some q' /\
    nth_error ins h = Some i /\ QI c L q (fst gh) (snd gh) /\ q_first_incorrect q = NULL /\ input predict q c = Ok (q', i).
Proof.
  intros st qs gs c L qs' ins h E HQ Hcl Hcon Hlen Hh.
  destruct (sync_inputs_pointwise st qs c qs' ins E Hcon Hlen) as (L1 & L2 & Hpt). pose proof (QsI_length _ _ _ _ HQ) as Hlq.
  destruct (nth_error qs h) as [q|] eqn:Eq; [|apply nth_error_None in Eq; lia].
  destruct (nth_error gs h) as [gh|] eqn:Eg; [|apply nth_error_None in Eg; lia].
  destruct (nth_error qs' h) as [q'|] eqn:Eq'; [|apply nth_error_None in Eq'; lia].
  destruct (nth_error ins h) as [i|] eqn:Ei; [|apply nth_error_None in Ei; lia].
  exists q, gh, q', i. repeat (split; [reflexivity|]).
  split; [exact (Forall2_nth _ _ _ _ _ _ HQ Eq Eg)|]. split; [|exact (Hpt h q q' i Eq Eq' Ei)].
  unfold all_clean in Hcl. rewrite Forall_forall in Hcl. exact (Hcl q (nth_error_In _ _ Eq)).
Qed.

Lemma gi_read : forall st qs gs c L G qs' ins,
  sync_inputs_go predict c qs st = Ok (qs', ins) -> QsI c L qs gs -> all_clean qs ->
  connected st -> length st = length qs -> 0 <= c -> L <= c -> glen G = c ->
  GIl c G qs gs -> GIl (c + 1) (G ++ [ins]) qs' gs.
Proof.
  intros st qs gs c L G qs' ins E HQ Hcl Hcon Hlen Hc HL HG HGI h q' gh B C.
  assert (Hh : (h < length qs)%nat) by (rewrite (QsI_length _ _ _ _ HQ); apply nth_error_Some; congruence).
  destruct (sync_inputs_nth st qs gs c L qs' ins h E HQ Hcl Hcon Hlen Hh) as (q & gh0 & q0 & [v stt] & Eq & Eg & Eq' & Ei & Hqi & Hfq & Ein).
  rewrite C in Eg. injection Eg as <-. rewrite B in Eq'. injection Eq' as <-.
  apply (gq_read c L G h q (fst gh) (snd gh) q' ins stt Hqi Hfq Hc HL HG (HGI h q gh Eq C)).
  unfold fval. rewrite (nth_error_nth _ _ _ Ei). exact Ein.
Qed.

(* what an AdvanceFrame request for frame f says about one player, against the inputs held for that player:
   Confirmed = the frame is held and the value is the held input; Predicted = the frame lies beyond everything
   held and the value is the predictor applied to the newest held input (the default input if none) *)
Definition truthful1 (hist : list Z) (f : Z) (i : Z * istatus) : Prop :=
  (snd i = Confirmed /\ f < hlen hist /\ fst i = hval hist f) \/
  (snd i = Predicted /\ hlen hist <= f /\ fst i = predval predict hist).

Definition truthful (gs : list ghost) (fi : Z * frame_inputs) : Prop :=
  Forall2 (fun (g : ghost) i => truthful1 (fst g) (fst fi) i) gs (snd fi).

Definition truthful_lt (c : Z) (gs : list ghost) (fi : Z * frame_inputs) : Prop := 0 <= fst fi < c /\ truthful gs fi.

Lemma read_truthful : forall st qs gs c L G qs' ins,
  sync_inputs_go predict c qs st = Ok (qs', ins) -> QsI c L qs gs -> all_clean qs ->
  connected st -> length st = length qs -> 0 <= c -> L <= c ->
  GIl c G qs gs -> truthful gs (c, ins).
Proof.
  intros st qs gs c L G qs' ins E HQ Hcl Hcon Hlen Hc HL HGI.
  destruct (sync_inputs_pointwise st qs c qs' ins E Hcon Hlen) as (_ & L2 & _).
  pose proof (QsI_length _ _ _ _ HQ) as Hlq.
  apply Forall2_pointwise; [cbn [snd]; lia|]. cbn [fst snd]. intros h gh i C Ei.
  assert (Hh : (h < length qs)%nat) by (rewrite Hlq; apply nth_error_Some; congruence).
  destruct (sync_inputs_nth st qs gs c L qs' ins h E HQ Hcl Hcon Hlen Hh) as (q & gh0 & q' & [v stt] & Eq & Eg & _ & Ei' & Hqi & Hfq & Ein).
  rewrite C in Eg. injection Eg as <-. rewrite Ei in Ei'. injection Ei' as ->.
  destruct (input_value c L q (fst gh) (snd gh) q' v stt Hqi Hfq Hc HL Ein) as (_ & [(A1 & A2 & _ & A4)|(A1 & _ & _ & A4 & A5)]).
  - left. cbn [fst snd]. repeat split; assumption.
  - right. cbn [fst snd]. split; [exact A4|]. split; [exact A1|]. exact (A5 (fun A => gq_pv _ _ _ _ _ (HGI h q gh Eq C) A Hfq)).
Qed.

Lemma truthful_map_fst : forall gs gs' fi, map fst gs' = map fst gs -> truthful gs fi -> truthful gs' fi.
Proof.
  intros gs gs' fi Hm H. unfold truthful in *. revert gs' Hm.
  induction H as [|g i gs ins Hgi H IH]; intros [|g' gs'] Hm; try discriminate; constructor.
  - cbn in Hm. injection Hm as -> _. exact Hgi.
  - apply IH. cbn in Hm. injection Hm as _ ->. reflexivity.
Qed.

(* the histories only grow while the local inputs are registered, and only histories that already reach the
   current frame: what was said about an earlier frame stays true *)
Lemma truthful_grows_all : forall c qs gs qs' gs' fi,
  grows_all c qs gs qs' gs' -> length qs' = length gs' -> length gs' = length gs ->
  truthful_lt c gs fi -> truthful gs' fi.
Proof.
  intros c qs gs qs' gs' fi Hg Hl1 Hl2 (Hlt & H). unfold truthful in *.
  pose proof (Forall2_len _ _ _ H) as Hl3.
  apply Forall2_pointwise; [lia|]. intros h gh' i C Ei.
  destruct (nth_error qs' h) as [q'|] eqn:Eq'; [|apply nth_error_None in Eq'; assert (nth_error gs' h <> None) as X by congruence; apply nth_error_Some in X; lia].
  destruct (Hg h q' gh' Eq' C) as (q & gh & Eq & Cg & (_ & _ & Hh)).
  pose proof (Forall2_nth _ _ _ _ _ _ H Cg Ei) as T. cbv beta in T.
  destruct Hh as [->|(Hreach & _ & _ & ext & ->)]; [exact T|].
  destruct T as [(T1 & T2 & T3)|(T1 & T2 & T3)]; [|lia].
  left. split; [exact T1|]. split; [unfold hlen in *; rewrite app_length; lia|]. rewrite T3. symmetry. apply hval_app_l. lia.
Qed.

Lemma truthful_held : forall gs f ins h hist low v st,
  truthful gs (f, ins) -> nth_error gs h = Some (hist, low) -> nth_error ins h = Some (v, st) ->
  (st = Confirmed \/ st = Predicted) /\ (f < hlen hist -> st = Confirmed /\ v = hval hist f) /\
  (st = Predicted -> hlen hist <= f /\ v = predval predict hist).
Proof.
  intros gs f ins h hist low v st H A B. unfold truthful in H. cbn [fst snd] in H.
  pose proof (Forall2_nth _ _ _ _ _ _ H A B) as T. cbv beta in T. unfold truthful1 in T. cbn [fst snd] in T.
  destruct T as [(T1 & T2 & T3)|(T1 & T2 & T3)].
  - split; [left; exact T1|]. split; [intros _; split; assumption|]. intros X. congruence.
  - split; [right; exact T1|]. split; [intros X; lia|]. intros _. split; assumption.
Qed.

Lemma truthful_local : forall sp w d p gs f ins h v st,
  QSg sp w d p gs -> truthful_lt (s_current (ps_sync p)) gs (f, ins) ->
  nth_error (ps_kinds p) h = Some KLocal -> nth_error ins h = Some (v, st) ->
  st = Confirmed /\ exists hist low, nth_error gs h = Some (hist, low) /\ f < hlen hist /\ v = hval hist f.
Proof.
  intros sp w d p gs f ins h v st HQS ((Hf0 & Hfc) & H) Hk Hi. cbn [fst] in Hf0, Hfc.
  pose proof (Forall2_len _ _ _ H) as Hl. cbn [snd] in Hl.
  assert (exists gh, nth_error gs h = Some gh) as ([hist low] & Hg).
  { destruct (nth_error gs h) eqn:X; [eauto|]. exfalso. apply nth_error_None in X.
    assert (h < length ins)%nat by (apply nth_error_Some; congruence). unfold ghost in *. lia. }
  pose proof (qs_qs _ _ _ _ HQS) as HQ. pose proof (QsI_length _ _ _ _ HQ) as Hlq.
  destruct (nth_error_some_len (s_queues (ps_sync p)) gs h (hist, low) Hlq Hg) as (q & Hq).
  pose proof (qs_kinds _ _ _ _ HQS h KLocal q (hist, low) Hk Hq Hg) as HK. cbn [fst] in HK.
  destruct (qs_d _ _ _ _ HQS) as (Hd & _).
  pose proof (KI_local_reach _ _ _ _ Hd HK) as Hreach.
  destruct (truthful_held gs f ins h hist low v st H Hg Hi) as (_ & T & _).
  destruct (T ltac:(lia)) as (T1 & T2).
  split; [exact T1|]. exists hist, low. split; [exact Hg|]. split; [lia|exact T2].
Qed.

Lemma truthful_confirmed_ok : forall c gs fi, truthful_lt c gs fi -> confirmed_ok gs fi.
Proof.
  intros c gs [f ins] ((Hf & _) & Ht) h v Hn. cbn [fst snd] in *. unfold truthful in Ht. cbn [fst snd] in Ht.
  assert (Hl := Forall2_len _ _ _ Ht).
  destruct (nth_error gs h) as [gh|] eqn:Eg.
  2:{ apply nth_error_None in Eg. assert (h < length ins)%nat by (apply nth_error_Some; congruence). lia. }
  pose proof (Forall2_nth _ _ _ _ _ _ Ht Eg Hn) as T. cbv beta in T. unfold truthful1 in T. cbn [fst snd] in T.
  exists gh. split; [reflexivity|]. destruct T as [(_ & A & B)|(X & _)]; [|discriminate]. split; [lia|congruence].
Qed.

Lemma pn_read : forall st qs gs c L qs' ins,
  sync_inputs_go predict c qs st = Ok (qs', ins) -> QsI c L qs gs -> all_clean qs ->
  connected st -> length st = length qs -> 0 <= c -> L <= c -> PNl (c + 1) qs' gs.
Proof.
  intros st qs gs c L qs' ins E HQ Hcl Hcon Hlen Hc HL h q' gh B C Hn.
  assert (Hh : (h < length qs)%nat) by (rewrite (QsI_length _ _ _ _ HQ); apply nth_error_Some; congruence).
  destruct (sync_inputs_nth st qs gs c L qs' ins h E HQ Hcl Hcon Hlen Hh) as (q & gh0 & q0 & i & Eq & Eg & Eq' & _ & Hqi & Hfq & Ein).
  rewrite C in Eg. injection Eg as <-. rewrite B in Eq'. injection Eq' as <-.
  destruct i as [v stt].
  destruct (input_value c L q (fst gh) (snd gh) q' v stt Hqi Hfq Hc HL Ein) as (_ & [(A & _)|(_ & _ & A & _)]); [lia|contradiction].
Qed.

(* what a stretch R of requests, issued when the game's history was G, leaves behind: the timeline invariant at
   frame c for the queues qs, and every AdvanceFrame of R truthful *)
Definition emitted (c : Z) (gs : list ghost) (G : ghist) (R : list request) (qs : list queue) : Prop :=
  GIl c (replay_hist G R) qs gs /\ glen (replay_hist G R) = c /\ PNl c qs gs /\
  Forall (truthful_lt c gs) (adv_frames G R).

Lemma emitted_nil : forall c gs G qs, GIl c G qs gs -> glen G = c -> PNl c qs gs -> emitted c gs G [] qs.
Proof. intros c gs G qs A B C. split; [exact A|]. split; [exact B|]. split; [exact C|constructor]. Qed.

Lemma emitted_app : forall c gs G R1 R2 qs1 qs2,
  emitted c gs G R1 qs1 -> emitted c gs (replay_hist G R1) R2 qs2 -> emitted c gs G (R1 ++ R2) qs2.
Proof.
  intros c gs G R1 R2 qs1 qs2 (_ & _ & _ & T1) (A & B & C & T2). unfold emitted. rewrite replay_hist_app, adv_frames_app.
  split; [exact A|]. split; [exact B|]. split; [exact C|]. apply Forall_app. split; assumption.
Qed.

Lemma emitted_save : forall c gs G R qs f, emitted c gs G R qs -> emitted c gs G (R ++ [RSave f]) qs.
Proof.
  intros c gs G R qs f (A & B & C & T). unfold emitted. rewrite replay_hist_app, adv_frames_app. cbn [replay_hist adv_frames].
  rewrite app_nil_r. split; [exact A|]. split; [exact B|]. split; [exact C|exact T].
Qed.

(* after a load the prediction slots are idle whatever is held, so PNl is only re-established by the first read:
   hence the disjunction *)
Lemma resim_gi : forall n i p gs L mc o p' o' G,
  resim_go predict n i p mc o = Ok (p', o') ->
  connected (ps_status p) -> length (ps_status p) = length (s_queues (ps_sync p)) ->
  QsI (s_current (ps_sync p)) L (s_queues (ps_sync p)) gs -> all_clean (s_queues (ps_sync p)) ->
  0 <= s_current (ps_sync p) -> L <= s_current (ps_sync p) ->
  glen G = s_current (ps_sync p) -> GIl (s_current (ps_sync p)) G (s_queues (ps_sync p)) gs ->
  ((0 < n)%nat \/ PNl (s_current (ps_sync p)) (s_queues (ps_sync p)) gs) ->
  exists R, o_requests o' = o_requests o ++ R /\
    emitted (s_current (ps_sync p) + Z.of_nat n) gs G R (s_queues (ps_sync p')).
Proof.
  induction n as [|n IH]; intros i p gs L mc o p' o' G E Hcon Hlen HQ Hcl Hc HL HG HGI HPN.
  - injection E as <- <-. exists []. rewrite app_nil_r, Z.add_0_r. split; [reflexivity|].
    apply emitted_nil; [exact HGI|exact HG|]. destruct HPN as [X|X]; [lia|exact X].
  - destruct (resim_go_S_inv predict _ _ _ _ _ _ _ E) as (qs' & ins & s2 & o2 & SV & E0 & Hq2 & Hc2 & _ & Ho2 & HSV & E').
    set (c := s_current (ps_sync p)) in *.
    destruct (sync_inputs_go_ok predict (ps_status p) (s_queues (ps_sync p)) gs c L HQ Hcl Hlen Hcon Hc HL)
      as (qs'' & ins'' & E0' & HQ' & Hcl' & _).
    rewrite E0 in E0'. injection E0' as <- <-.
    pose proof (gi_read _ _ _ _ _ _ _ _ E0 HQ Hcl Hcon Hlen Hc HL HG HGI) as HGI1.
    pose proof (pn_read _ _ _ _ _ _ _ E0 HQ Hcl Hcon Hlen Hc HL) as HPN1.
    pose proof (read_truthful _ _ _ _ _ _ _ _ E0 HQ Hcl Hcon Hlen Hc HL HGI) as HT1.
    assert (Hsv : replay_hist G SV = G /\ adv_frames G SV = []) by (destruct HSV as [->| ->]; split; reflexivity).
    destruct Hsv as (HrS & HaS).
    destruct (IH (i + 1) (with_sync p (advance_frame s2)) gs L mc (add_req o2 (RAdvance ins)) p' o' (G ++ [ins]) E')
      as (R & Ho & HGI' & HG' & HPN' & HTR'); cbn [with_sync ps_status ps_sync advance_frame with_current s_queues s_current];
      rewrite ?Hq2, ?Hc2.
    + exact Hcon.
    + pose proof (QsI_length _ _ _ _ HQ'). pose proof (QsI_length _ _ _ _ HQ). lia.
    + exact HQ'.
    + exact Hcl'.
    + lia.
    + lia.
    + rewrite glen_app. lia.
    + exact HGI1.
    + right. exact HPN1.
    + cbn [with_sync ps_sync advance_frame with_current s_current] in HGI', HG', HPN', HTR'.
      rewrite Hc2 in HGI', HG', HPN', HTR'. fold c in HGI', HG', HPN', HTR'.
      replace (c + 1 + Z.of_nat n) with (c + Z.of_nat (S n)) in HGI', HG', HPN', HTR' by lia.
      exists (SV ++ RAdvance ins :: R).
      split; [rewrite Ho; cbn [add_req o_requests]; rewrite Ho2, <- !app_assoc; reflexivity|].
      unfold emitted. rewrite replay_hist_app, adv_frames_app, HrS, HaS. cbn [replay_hist adv_frames app].
      split; [exact HGI'|]. split; [exact HG'|]. split; [exact HPN'|]. constructor; [|exact HTR'].
      unfold glen in HG. rewrite HG. split; [cbn [fst]; lia|exact HT1].
Qed.

Lemma gi_load_reset : forall c L G qs gs fi,
  QsI c L qs gs -> GIl c G qs gs -> glen G = c -> 0 <= fi <= c ->
  Forall (fun q => q_first_incorrect q <> NULL -> fi <= q_first_incorrect q) qs ->
  GIl fi (firstn (Z.to_nat fi) G) (map reset_prediction qs) gs.
Proof.
  intros c L G qs gs fi HQ HGI HG Hfi Hmin h qr gh B C.
  rewrite nth_error_map in B. destruct (nth_error qs h) as [q|] eqn:Eq; [|discriminate]. injection B as <-.
  pose proof (HGI h q gh Eq C) as [Gk Gp Gv].
  pose proof (Forall2_nth _ _ _ _ _ _ HQ Eq C) as Hqi. cbv beta in Hqi.
  rewrite Forall_forall in Hmin. pose proof (Hmin q (nth_error_In _ _ Eq)) as Hm.
  constructor; cbn [reset_prediction q_first_incorrect q_pred pi_frame].
  - intros f Hf Hfl _. rewrite gvalL_firstn by lia. apply Gk; [lia|exact Hfl|].
    destruct (Z.eq_dec (q_first_incorrect q) NULL) as [En|En]; [left; exact En|right; specialize (Hm En); lia].
  - intros _ f Hf Hfl. rewrite gvalL_firstn by lia.
    destruct (Z.eq_dec (q_first_incorrect q) NULL) as [En|En].
    + apply Gp; [exact En|lia|exact Hfl].
    + destruct (qi_p4 _ _ _ _ _ Hqi En) as (_ & (P1 & P2) & _). specialize (Hm En). lia.
  - intros A. congruence.
Qed.

Lemma adjust_gi_g : forall p gs L fi mc o p' o' G,
  adjust_gamestate predict p fi mc o = Ok (p', o') ->
  connected (ps_status p) -> length (ps_status p) = length (s_queues (ps_sync p)) ->
  QsI (s_current (ps_sync p)) L (s_queues (ps_sync p)) gs ->
  L <= frame_to_load p fi -> -1 <= L ->
  Forall (fun q => q_first_incorrect q <> NULL -> frame_to_load p fi <= q_first_incorrect q) (s_queues (ps_sync p)) ->
  glen G = s_current (ps_sync p) -> GIl (s_current (ps_sync p)) G (s_queues (ps_sync p)) gs ->
  exists R, o_requests o' = o_requests o ++ R /\ emitted (s_current (ps_sync p)) gs G R (s_queues (ps_sync p')).
Proof.
  intros p gs L fi mc o p' o' G E Hcon Hlen HQ HLfl HL Hmin HG HGI.
  apply adjust_gamestate_ok in E. destruct E as (_ & (Hfl0 & Hflc) & _ & _ & Er & _).
  set (fl := frame_to_load p fi) in *. set (c := s_current (ps_sync p)) in *.
  destruct (resim_gi (Z.to_nat (c - fl)) 0 _ gs L mc _ p' o' (firstn (Z.to_nat fl) G) Er) as (R & Ho & HE);
    cbn [with_sync ps_status ps_sync reset_all with_queues s_queues s_current with_current].
  - exact Hcon.
  - rewrite map_length. exact Hlen.
  - eapply QsI_reset. exact HQ.
  - apply all_clean_reset.
  - exact Hfl0.
  - lia.
  - apply glen_firstn. lia.
  - eapply gi_load_reset; try eassumption. lia.
  - left. lia.
  - cbn [with_sync ps_sync reset_all with_queues s_current with_current] in HE.
    replace (fl + Z.of_nat (Z.to_nat (c - fl))) with c in HE by lia.
    exists (RLoad fl :: R). split; [rewrite Ho; cbn [add_req o_requests]; rewrite <- app_assoc; reflexivity|exact HE].
Qed.

Lemma first_rollback_gi : forall p gs L cf o p2 o2 G,
  first_rollback predict p cf o = Ok (p2, o2) ->
  connected (ps_status p) -> length (ps_status p) = length (s_queues (ps_sync p)) ->
  QsI (s_current (ps_sync p)) L (s_queues (ps_sync p)) gs -> -1 <= L ->
  (forall fi, fi = check_simulation_consistency (ps_sync p) (ps_disc_frame p) -> fi <> NULL ->
     L <= frame_to_load p fi /\
     Forall (fun q => q_first_incorrect q <> NULL -> frame_to_load p fi <= q_first_incorrect q) (s_queues (ps_sync p))) ->
  glen G = s_current (ps_sync p) -> GIl (s_current (ps_sync p)) G (s_queues (ps_sync p)) gs ->
  PNl (s_current (ps_sync p)) (s_queues (ps_sync p)) gs ->
  exists R, o_requests o2 = o_requests o ++ R /\ emitted (s_current (ps_sync p)) gs G R (s_queues (ps_sync p2)).
Proof.
  intros p gs L cf o p2 o2 G E Hcon Hlen HQ HL Hload HG HGI HPN.
  destruct (first_rollback_inv predict _ _ _ _ _ E) as [(_ & -> & ->)|(Hfn & p3 & Ea & ->)].
  - exists []. rewrite app_nil_r. split; [reflexivity|apply emitted_nil; assumption].
  - destruct (Hload _ eq_refl Hfn) as (HLF & Hmin).
    exact (adjust_gi_g p gs L _ cf o p3 o2 G Ea Hcon Hlen HQ HLF HL Hmin HG HGI).
Qed.

Lemma GQ_ext : forall c G h q q' hist,
  q_first_incorrect q' = q_first_incorrect q -> q_pred q' = q_pred q -> GQ c G h q hist -> GQ c G h q' hist.
Proof. intros c G h q q' hist F P [A B C]. constructor; rewrite ?F, ?P; assumption. Qed.

Lemma GQ_grows : forall c G h q q' hist hist',
  grows c q hist q' hist' -> GQ c G h q hist -> GQ c G h q' hist'.
Proof.
  intros c G h q q' hist hist' (F & (P & _) & [->|(Hr & Hpn & Hfn & ext & ->)]) HG; [eapply GQ_ext; eassumption|].
  destruct HG as [A B C]. pose proof (hlen_nonneg hist) as Hnn.
  constructor; rewrite ?F, ?P.
  - intros f Hf Hfl Hc. rewrite hval_app_l by lia. apply A; [exact Hf|lia|exact Hc].
  - intros _ f Hf Hfl. unfold hlen in *. rewrite app_length in Hfl. lia.
  - intros X. congruence.
Qed.

Lemma handle_rollback_ti : forall p gs cf o p1 o1 G,
  handle_rollback_and_save predict p cf o = Ok (p1, o1) ->
  ps_sparse p = false -> connected (ps_status p) ->
  length (ps_status p) = length (s_queues (ps_sync p)) -> ps_disc_frame p = NULL ->
  QsI (s_current (ps_sync p)) (s_last_confirmed (ps_sync p)) (s_queues (ps_sync p)) gs ->
  -1 <= s_last_confirmed (ps_sync p) ->
  glen G = s_current (ps_sync p) -> GIl (s_current (ps_sync p)) G (s_queues (ps_sync p)) gs ->
  PNl (s_current (ps_sync p)) (s_queues (ps_sync p)) gs ->
  exists R, o_requests o1 = o_requests o ++ R /\ emitted (s_current (ps_sync p)) gs G R (s_queues (ps_sync p1)).
Proof.
  intros p gs cf o p1 o1 G E Hsp Hcon Hlen Hdf HQ HL HG HGI HPN.
  rewrite handle_rollback_and_save_eq in E. apply res_bind_ok in E. destruct E as ([p2 o2] & E2 & E).
  assert (Hsp2 : ps_sparse p2 = false).
  { destruct (first_rollback_inv predict _ _ _ _ _ E2) as [(_ & -> & _)|(_ & p3 & Ea & ->)]; [exact Hsp|].
    rewrite (adjust_shape predict _ _ _ _ _ _ Ea). exact Hsp. }
  destruct (first_rollback_gi p gs _ cf o p2 o2 G E2 Hcon Hlen HQ HL) as (R & Ho2 & HE); try assumption.
  { intros fi -> Hfn. unfold frame_to_load. rewrite Hsp. rewrite check_simulation_consistency_eq, Hdf in Hfn |- *.
    destruct (csc_fold_QsI (s_queues (ps_sync p)) gs _ _ NULL HQ (or_introl eq_refl)) as [(Hr & _)|Hr]; [contradiction|].
    split; [lia|]. destruct (csc_fold_min (s_queues (ps_sync p)) NULL) as (_ & _ & Hmin).
    eapply Forall_impl; [|exact Hmin]. cbv beta. intros q Hq En. exact (proj2 (Hq En)). }
  rewrite Hsp2 in E. apply save_p2p_ok in E. destruct E as (_ & -> & ->).
  exists (R ++ [RSave (s_current (ps_sync p2))]). cbn [add_req o_requests with_sync ps_sync saved s_queues].
  split; [rewrite Ho2, <- app_assoc; reflexivity|]. apply emitted_save. exact HE.
Qed.

(* the invariant between the game's history and the session, at call boundaries *)
Definition TI (p : p2p) (gs : list ghost) (G : ghist) : Prop :=
  glen G = s_current (ps_sync p) /\
  GIl (s_current (ps_sync p)) G (s_queues (ps_sync p)) gs /\
  PNl (s_current (ps_sync p)) (s_queues (ps_sync p)) gs.

Lemma TI_sync : forall p p' gs G, ps_sync p' = ps_sync p -> TI p gs G -> TI p' gs G.
Proof. intros p p' gs G E H. unfold TI. rewrite E. exact H. Qed.

Lemma GIl_grows : forall c G qs gs qs' gs', grows_all c qs gs qs' gs' -> GIl c G qs gs -> GIl c G qs' gs'.
Proof.
  intros c G qs gs qs' gs' Hg HGI h q' gh' B C. destruct (Hg h q' gh' B C) as (q & gh & B0 & C0 & Hgr).
  eapply GQ_grows; [exact Hgr|]. apply HGI; assumption.
Qed.

(* what the rollback step must deliver, progress (HRpost) and timeline together *)
Definition HRti (p : p2p) (gs : list ghost) (cf : Z) (o : pout) (G : ghist) : Prop :=
  exists p1 o1 R, HRpost predict p gs cf o p1 o1 /\ o_requests o1 = o_requests o ++ R /\
    GIl (s_current (ps_sync p)) (replay_hist G R) (s_queues (ps_sync p1)) gs /\
    glen (replay_hist G R) = s_current (ps_sync p) /\ PNl (s_current (ps_sync p)) (s_queues (ps_sync p1)) gs /\
    Forall (truthful_lt (s_current (ps_sync p)) gs) (adv_frames G R).

(* a frame that is confirmed and simulated was last simulated with the input held for it *)
Lemma TI_confirmed_known : forall sp w d p gs G h hist low f,
  QSg sp w d p gs -> TI p gs G -> nth_error gs h = Some (hist, low) ->
  0 <= f <= s_last_confirmed (ps_sync p) -> f < s_current (ps_sync p) ->
  f < hlen hist /\ gvalL G f h = hval hist f.
Proof.
  intros sp w d p gs G h hist low f HQS (_ & HGI & _) Eg Hf Hfc.
  pose proof (qs_qs _ _ _ _ HQS) as HQ.
  destruct (QsI_nth _ _ _ _ h (hist, low) HQ Eg) as (q & Eq & Hqi). cbn [fst snd] in Hqi.
  pose proof (qi_conf _ _ _ _ _ Hqi) as Hcf.
  split; [lia|].
  apply (gq_known _ _ _ _ _ (HGI h q (hist, low) Eq Eg)); [lia|cbn [fst]; lia|].
  destruct (Z.eq_dec (q_first_incorrect q) NULL) as [En|En]; [left; exact En|right].
  destruct (qi_p4 _ _ _ _ _ Hqi En) as (_ & (A & _) & _). lia.
Qed.

Lemma TI_start_g : forall sp n w d kinds eps nspec, TI (session_start n w sp d kinds eps nspec) (repeat ([], 0) (Z.to_nat n)) [].
Proof.
  intros sp n w d kinds eps nspec. unfold TI, session_start, p2p_new, sync_new.
  cbn [with_running with_queues ps_sync s_current s_queues glen length Z.of_nat].
  split; [reflexivity|]. split.
  - intros h q gh B C. apply nth_error_start_queues in B. apply nth_error_In, repeat_spec in C. subst gh. cbn [fst].
    constructor.
    + intros f Hf. lia.
    + intros _ f Hf. lia.
    + intros A. exfalso. apply A. subst q. cbn [Z.add]. destruct (nth_error kinds _) as [[| |]|]; reflexivity.
  - intros h q gh B C _. pose proof (hlen_nonneg (fst gh)). lia.
Qed.

Lemma start_ghost_nth : forall sp n w d kinds eps nspec pl k,
  QSg sp w d (session_start n w sp d kinds eps nspec) (repeat ([], 0) (Z.to_nat n)) ->
  nth_error kinds pl = Some k -> nth_error (repeat (@nil Z, 0) (Z.to_nat n)) pl = Some ([], 0).
Proof.
  intros sp n w d kinds eps nspec pl k HQ Hk. apply nth_error_repeat.
  destruct (qs_n _ _ _ _ HQ) as (_ & _ & Y & _). rewrite repeat_length in Y. rewrite <- Y.
  apply nth_error_Some. change (ps_kinds (session_start n w sp d kinds eps nspec)) with kinds. congruence.
Qed.

Lemma timeline_same_flags : forall c G qs qs' gs gs',
  Forall2 (fun q q' => q_pred q' = q_pred q /\ q_first_incorrect q' = q_first_incorrect q) qs qs' ->
  map fst gs' = map fst gs -> GIl c G qs gs -> PNl c qs gs -> GIl c G qs' gs' /\ PNl c qs' gs'.
Proof.
  intros c G qs qs' gs gs' Hsame Hmap HGI HPN.
  assert (Hback : forall h q' gh', nth_error qs' h = Some q' -> nth_error gs' h = Some gh' ->
            exists q gh, nth_error qs h = Some q /\ nth_error gs h = Some gh /\ fst gh = fst gh' /\
                         q_pred q' = q_pred q /\ q_first_incorrect q' = q_first_incorrect q).
  { intros h q' gh' B C. destruct (map_fst_nth gs gs' h gh' Hmap C) as (gh & Cg & Efst).
    destruct (nth_error_some_len qs qs' h q' (Forall2_len _ _ _ Hsame) B) as (q & B1).
    exists q, gh. split; [exact B1|]. split; [exact Cg|]. split; [exact Efst|]. exact (Forall2_nth _ _ _ _ _ _ Hsame B1 B). }
  split.
  - intros h q' gh' B C. destruct (Hback h q' gh' B C) as (q & gh & B1 & Cg & <- & P & F).
    eapply GQ_ext; [exact F|exact P|]. apply HGI; assumption.
  - intros h q' gh' B C Hn. destruct (Hback h q' gh' B C) as (q & gh & B1 & Cg & <- & P & F).
    apply (HPN h q gh B1 Cg). congruence.
Qed.

Lemma truthful_lt_map_fst : forall c gs gs' fi, map fst gs' = map fst gs -> truthful_lt c gs fi -> truthful_lt c gs' fi.
Proof. intros c gs gs' fi Hm (A & B). split; [exact A|]. exact (truthful_map_fst gs gs' fi Hm B). Qed.

Lemma gate_timeline : forall sp w d p gs G o p' o',
  advance_if_allowed predict p o = Ok (p', o') -> QSg sp w d p gs -> all_clean (s_queues (ps_sync p)) -> TI p gs G ->
  exists R s' pend, p' = with_pending (with_sync p s') pend /\ o_requests o' = o_requests o ++ R /\ same_sends o o' /\
    TI p' gs (replay_hist G R) /\ s_current (ps_sync p) <= s_current (ps_sync p') /\
    Forall (truthful_lt (s_current (ps_sync p')) gs) (adv_frames G R).
Proof.
  intros sp w d p gs G o p' o' E HQS Hcl (HG & HGI & HPN). apply advance_if_allowed_inv in E.
  destruct (_ <? _).
  2:{ destruct E as (-> & ->). exists [], (ps_sync p), (ps_pending p). rewrite app_nil_r.
      split; [destruct p; reflexivity|]. split; [reflexivity|]. split; [apply same_sends_refl|].
      split; [split; [exact HG|split; [exact HGI|exact HPN]]|]. split; [lia|constructor]. }
  destruct E as (s5 & ins & E5 & -> & ->). apply synchronized_inputs_ok in E5. destruct E5 as (qs' & E0 & ->).
  destruct (qs_n _ _ _ _ HQS) as (_ & _ & _ & Hn4). pose proof (qs_conn _ _ _ _ HQS) as Hconn.
  pose proof (qs_qs _ _ _ _ HQS) as HQ. destruct (qs_frames _ _ _ _ HQS) as ((_ & HLc) & Hfc & _).
  pose proof (QsI_length _ _ _ _ HQ) as Hlq.
  assert (Hlen : length (ps_status p) = length (s_queues (ps_sync p))) by lia.
  exists [RAdvance ins], (advance_frame (with_queues (ps_sync p) qs')), []. cbn [replay_hist adv_frames add_req o_requests].
  split; [reflexivity|]. split; [reflexivity|]. split; [split; reflexivity|].
  unfold TI. cbn [with_sync with_pending ps_sync advance_frame with_current with_queues s_current s_queues].
  split; [|split; [lia|]].
  - split; [rewrite glen_app; lia|]. split; [eapply gi_read; eassumption|eapply pn_read; eassumption].
  - constructor; [|constructor]. unfold glen in HG. rewrite HG. split; [cbn [fst]; lia|]. eapply read_truthful; eassumption.
Qed.

(* advance_rollback_frame for any saving mode: the mode supplies the rollback step (HRti) *)
Lemma advance_rollback_timeline_g : forall sp p gs w d o p' o' G,
  advance_rollback_frame predict p o = Ok (p', o') ->
  QSg sp w d p gs -> Forall (fun c => cs_last c < I32MAX) (ps_status p) ->
  (forall h, In h (local_handles p) -> exists pi, assoc_get (ps_pending p) h = Some pi) ->
  (forall cf, confirmed_frame p = Ok cf -> s_last_confirmed (ps_sync p) <= cf ->
     Forall (fun g : ghost => cf <= hlen (fst g) - 1) gs -> HRti p gs cf o G) ->
  TI p gs G ->
  exists gs' R, o_requests o' = o_requests o ++ R /\ QSg sp w d p' gs' /\ TI p' gs' (replay_hist G R) /\
    hist_step d (ps_pending p) (local_handles p) gs gs' /\ ps_kinds p' = ps_kinds p /\
    Forall (truthful_lt (s_current (ps_sync p')) gs') (adv_frames G R) /\
    exists cf, confirmed_frame p = Ok cf /\ o_spec_sends o' = o_spec_sends o ++ spec_sent p gs cf /\
               ps_next_spec p' = next_spec_after p cf /\ ps_spectators p' = ps_spectators p /\
               (OIg p gs -> OIb p' gs' /\ exists rounds, o_remote_sends o' = o_remote_sends o ++ rounds /\
                                                        rounds_ok (local_handles p) gs' rounds).
Proof.
  intros sp p gs w d o p' o' G E HQS Hbnd Hpend Hroll HTI.
  destruct (confirmed_frame_bounds sp w d p gs HQS Hbnd) as (cf & Ecf & HLcf & Hcfg & _).
  destruct (Hroll cf Ecf HLcf Hcfg) as (p1 & o1 & R1 & HR & Ho1 & HGI1 & HG1 & HPN1 & HTR1).
  destruct (rollback_confirm_tail predict sp p gs w d o cf p1 o1 HQS HLcf Hcfg HR)
    as (p2 & o2 & s3 & gs3 & C).
  destruct HR as (Er & Hshape & _ & _ & _ & _ & Hc1 & _).
  pose proof (cf_state C) as Hp2. pose proof (cf_confirm C) as E3. pose proof (cf_hist C) as Hmap3.
  pose proof (cf_cur C) as Hc3. rewrite Hc1 in Hc3. pose proof (cf_qs C) as HQS3.
  destruct (handle_rollback_sends predict _ _ _ _ _ Er) as (Hrs1 & Hss1).
  set (c := s_current (ps_sync p)) in *. set (G1 := replay_hist G R1) in *.
  set (p3 := with_sync p2 s3) in *.
  assert (Hf3 : ps_sparse p2 = sp /\ ps_sync p2 = ps_sync p1 /\ local_handles p3 = local_handles p /\
                ps_pending p3 = ps_pending p /\ ps_kinds p3 = ps_kinds p /\
                ps_next_spec p3 = next_spec_after p cf /\ ps_spectators p3 = ps_spectators p /\
                ps_outgoing p3 = ps_outgoing p /\ ps_last_sent_out p3 = ps_last_sent_out p /\ ps_remotes p3 = ps_remotes p).
  { subst p3. rewrite Hp2, Hshape. repeat split. exact (proj1 (proj2 (qs_mode _ _ _ _ HQS))). }
  destruct Hf3 as (Hsp2 & Hsy2 & Hlh3 & Hpe3 & Hkk3 & Hns3 & Hss3 & Hog3 & Hls3 & Hrm3).
  destruct (timeline_same_flags c G1 _ _ gs gs3 (cf_queues C) Hmap3 HGI1 HPN1) as (HGI3 & HPN3).
  (* the local inputs are registered and sent; the histories of the local players grow *)
  destruct (register_local_progress sp w d p3 gs3 o2 HQS3 (cf_clean C)) as (p5 & o5 & gs4 & E5 & R5 & Hor5 & Hos5 & Hout5).
  { intros h Hin. rewrite Hpe3. apply Hpend. rewrite <- Hlh3. exact Hin. }
  pose proof (rg_qs R5) as HQS5. pose proof (rg_rest R5) as Hrest5. pose proof (rg_cur R5) as Hc5.
  pose proof (rg_done R5) as Hdone5. pose proof (rg_grows R5) as Hgrow5. pose proof (rg_hist R5) as Hhist5.
  rewrite Hlh3 in Hdone5, Hhist5, Hout5. rewrite Hpe3 in Hhist5.
  change (s_current (ps_sync p3)) with (s_current s3) in Hc5, Hdone5, Hgrow5. rewrite Hc3 in Hc5, Hdone5, Hgrow5. fold c in Hc5, Hdone5, Hgrow5.
  pose proof (local_handles_rest _ _ Hrest5) as Hlh5. rewrite Hlh3 in Hlh5.
  pose proof (p_rest_kinds _ _ Hrest5) as Hkk5.
  assert (Hss5 : ps_spectators p5 = ps_spectators p3) by apply Hrest5.
  assert (Hns5 : ps_next_spec p5 = ps_next_spec p3) by apply Hrest5.
  assert (HTI5 : TI p5 gs4 G1).
  { unfold TI. rewrite Hc5. split; [exact HG1|]. split; [exact (GIl_grows _ _ _ _ _ _ Hgrow5 HGI3)|exact (PNl_grows _ _ _ _ _ Hgrow5 HPN3)]. }
  assert (Hhist : hist_step d (ps_pending p) (local_handles p) gs gs4).
  { intros h0 gh' A. destruct (Hhist5 h0 gh' A) as (gh3 & A3 & B3).
    destruct (map_fst_nth gs gs3 h0 gh3 Hmap3 A3) as (gh & Ag & Efst). exists gh. split; [exact Ag|]. rewrite Efst. exact B3. }
  assert (HTR5 : Forall (truthful_lt c gs4) (adv_frames G R1)).
  { eapply Forall_impl; [|exact HTR1]. intros fi Ht. split; [exact (proj1 Ht)|].
    apply (truthful_grows_all c (s_queues s3) gs3 (s_queues (ps_sync p5)) gs4 fi Hgrow5).
    - exact (QsI_length _ _ _ _ (qs_qs _ _ _ _ HQS5)).
    - destruct (qs_n _ _ _ _ HQS5) as (_ & _ & A & _). destruct (qs_n _ _ _ _ HQS3) as (_ & _ & B & _). congruence.
    - exact (truthful_lt_map_fst c gs gs3 fi Hmap3 Ht). }
  assert (HOUT : OIg p gs -> OIb p5 gs4 /\ exists rounds, o_remote_sends o5 = o_remote_sends o ++ rounds /\
                                                         rounds_ok (local_handles p) gs4 rounds).
  { intros HO. destruct Hout5 as (HOB5 & rounds & Q1 & Q2).
    - intros Hr3. rewrite Hrm3 in Hr3. exact (OI_same p p3 gs gs3 (HO Hr3) Hog3 Hls3 Hlh3 Hmap3).
    - split; [exact HOB5|]. exists rounds. split; [|exact Q2].
      destruct (send_spectators_shape _ _ _ _ _ (cf_send C)) as (ns & ss & _ & Eo2).
      rewrite Q1, Eo2. cbn [add_ssends o_remote_sends]. rewrite Hrs1. reflexivity. }
  assert (Hsp5 : o_spec_sends o5 = o_spec_sends o ++ spec_sent p gs cf) by (rewrite Hos5, (cf_ssends C), Hss1; reflexivity).
  rewrite <- Hsp2, <- Hsy2 in E3.
  rewrite (advance_rollback_frame_ok predict p o cf p1 o1 p2 o2 s3 p5 o5 _ Ecf Er (cf_send C) E3 E5 eq_refl) in E.
  destruct (gate_progress predict sp w d p5 gs4 o5 HQS5 (rg_clean R5)) as (p6 & o6 & E6 & HQS6 & _).
  { intros h Hin. rewrite Hc5. apply Hdone5. rewrite <- Hlh5. exact Hin. }
  rewrite E in E6. injection E6 as <- <-.
  destruct (gate_timeline sp w d p5 gs4 G1 o5 p' o' E HQS5 (rg_clean R5) HTI5) as (R2 & s' & pend & Hp' & Ho' & (Hrs' & Hss') & HTI6 & Hcge & HTR6).
  exists gs4, (R1 ++ R2). split; [rewrite Ho', Hor5, (cf_reqs C), Ho1, app_assoc; reflexivity|]. split; [exact HQS6|].
  rewrite replay_hist_app, adv_frames_app. fold G1.
  split; [exact HTI6|]. split; [exact Hhist|]. split; [rewrite Hp'; exact (eq_trans Hkk5 Hkk3)|]. split.
  { apply Forall_app. split; [|exact HTR6]. eapply Forall_impl; [|exact HTR5]. intros fi (Hlt & Ht). split; [lia|exact Ht]. }
  exists cf. split; [exact Ecf|]. split; [rewrite Hss'; exact Hsp5|]. split; [rewrite Hp'; exact (eq_trans Hns5 Hns3)|].
  split; [rewrite Hp'; exact (eq_trans Hss5 Hss3)|].
  intros HO. destruct (HOUT HO) as (HOB5 & rounds & Q1 & Q2). split; [|exists rounds; split; [rewrite Hrs'; exact Q1|exact Q2]].
  apply (OIb_same_local p5 _ gs4 gs4 HOB5); try (rewrite Hp'; reflexivity); [intros X; rewrite Hp' in X; exact X|reflexivity].
Qed.

Lemma dense_rollback_ti : forall p gs g w d o cf G,
  QS w d p gs -> JI w p g -> 1 <= w -> s_last_confirmed (ps_sync p) <= cf -> TI p gs G -> HRti p gs cf o G.
Proof.
  intros p gs g w d o cf G HQS HJI Hw1p HLcf (HG & HGI & HPN).
  destruct (dense_rollback predict p gs g w d o cf HQS HJI Hw1p HLcf) as (p1 & o1 & HR).
  destruct (qs_mode _ _ _ _ HQS) as (_ & Hsp & Hdf). destruct (qs_n _ _ _ _ HQS) as (_ & _ & _ & Hn4).
  destruct (qs_frames _ _ _ _ HQS) as ((HfL & _) & _).
  pose proof (QsI_length _ _ _ _ (qs_qs _ _ _ _ HQS)) as Hlq.
  destruct (handle_rollback_ti p gs cf o p1 o1 G (proj1 HR) Hsp (qs_conn _ _ _ _ HQS) ltac:(lia) Hdf (qs_qs _ _ _ _ HQS) HfL HG HGI HPN)
    as (R1 & Ho1 & HE).
  exists p1, o1, R1. split; [exact HR|]. split; [exact Ho1|exact HE].
Qed.

Lemma advance_timeline_g : forall sp p gs w d p' o r G,
  advance predict p = Ok (p', o, r) -> QSg sp w d p gs -> 1 <= w ->
  Forall (fun c => cs_last c < I32MAX) (ps_status p) -> TI p gs G ->
  (forall p1 o1 cf, first_save p = Ok (p1, o1) ->
     QSg sp w d p1 gs -> TI p1 gs G -> confirmed_frame p1 = Ok cf -> s_last_confirmed (ps_sync p1) <= cf ->
     HRti p1 gs cf o1 G) ->
  exists gs', QSg sp w d p' gs' /\ TI p' gs' (replay_hist G (o_requests o)) /\
    hist_step d (ps_pending p) (local_handles p) gs gs' /\ ps_kinds p' = ps_kinds p /\ spec_step p gs' o p' /\
    Forall (truthful_lt (s_current (ps_sync p')) gs') (adv_frames G (o_requests o)) /\ sends_adv p gs gs' p' o.
Proof.
  intros sp p gs w d p' o r G E HQS Hw1p Hbnd HTI Hroll.
  destruct (qs_w _ _ _ _ HQS) as (_ & Hw2 & _).
  destruct (advance_inv _ _ _ _ _ E) as [(_ & -> & ->)|(_ & _ & Hall & p1 & o1 & p2 & E1 & E2 & E3)].
  { exists gs. split; [exact HQS|]. split; [exact HTI|]. split; [apply hist_step_refl|]. split; [reflexivity|].
    split; [apply spec_step_none; [exact (qs_spec _ _ _ _ HQS)|reflexivity..]|]. split; [constructor|]. intros HO. split; [exact HO|constructor]. }
  pose proof (proj1 (all_pending_spec p) Hall) as Hpend.
  assert ((ps_maxpred p =? 0) = false) as Hm0 by lia. rewrite Hm0 in E3.
  destruct (first_save_inv _ _ _ E1) as (Hp1 & Hq1 & Hc1 & HL1 & Hm1 & Hrs1 & Hss1 & Hreq1).
  assert (Hf1 : ps_status p1 = ps_status p /\ local_handles p1 = local_handles p /\ ps_pending p1 = ps_pending p /\
                ps_remotes p1 = ps_remotes p /\ ps_kinds p1 = ps_kinds p /\ ps_next_spec p1 = ps_next_spec p /\
                ps_spectators p1 = ps_spectators p /\ ps_outgoing p1 = ps_outgoing p /\ ps_last_sent_out p1 = ps_last_sent_out p)
    by (rewrite Hp1; repeat split).
  destruct Hf1 as (Hst1 & Hlh1 & Hpe1 & Hrm1 & Hkk1 & Hns1 & Hsp1 & Hog1 & Hls1).
  assert (HQS1 : QSg sp w d p1 gs) by (rewrite Hp1; apply QS_same_queues; assumption).
  assert (HTI1 : TI p1 gs G) by (unfold TI in *; rewrite Hc1, Hq1; exact HTI).
  assert (Hneutral : forall G0, replay_hist G0 (o_requests o1) = G0 /\ adv_frames G0 (o_requests o1) = [])
    by (intros G0; destruct Hreq1 as [-> | ->]; split; reflexivity).
  rewrite (update_disconnects_noop p1) in E2; [|rewrite Hst1; exact (qs_conn _ _ _ _ HQS)|rewrite Hrm1; exact (qs_gossip _ _ _ _ HQS)].
  injection E2 as <-.
  destruct (advance_rollback_timeline_g sp p1 gs w d o1 p' o G E3 HQS1)
    as (gs' & R & Ho & HQS' & HTI' & Hh' & Hkk' & HTR' & cf & Ecf & Hsent & Hns' & Hsp' & Hout').
  { rewrite Hst1. exact Hbnd. }
  { intros h Hin. rewrite Hpe1. apply Hpend. rewrite <- Hlh1. exact Hin. }
  { intros cf Ecf HLcf _. exact (Hroll p1 o1 cf E1 HQS1 HTI1 Ecf HLcf). }
  { exact HTI1. }
  rewrite Hpe1, Hlh1 in Hh'.
  exists gs'. rewrite Ho, replay_hist_app, adv_frames_app, (proj1 (Hneutral G)), (proj2 (Hneutral G)).
  split; [exact HQS'|]. split; [exact HTI'|]. split; [exact Hh'|]. split; [congruence|]. split; [|split; [exact HTR'|]].
  - apply (spec_sent_step p gs gs' cf); [exact (qs_spec _ _ _ _ HQS)| | |congruence| |].
    + apply (cf_bound _ w d p gs cf HQS). unfold confirmed_frame in *. rewrite <- Hst1. exact Ecf.
    + apply (hist_step_grows_gs _ _ _ _ _ Hh').
      destruct (qs_n _ _ _ _ HQS') as (_ & _ & A & _). destruct (qs_n _ _ _ _ HQS) as (_ & _ & B & _). congruence.
    + rewrite Hsent, Hss1. unfold spec_sent. rewrite Hsp1, Hns1. reflexivity.
    + rewrite Hns'. unfold next_spec_after. rewrite Hsp1, Hns1. reflexivity.
  - intros (HO & _). destruct Hout' as (HOB' & rounds & Q1 & Q2).
    { intros Hr1. rewrite Hrm1 in Hr1. exact (OI_same p p1 gs gs (HO Hr1) Hog1 Hls1 Hlh1 eq_refl). }
    split; [exact HOB'|]. rewrite Q1, Hrs1. cbn [app]. rewrite <- Hlh1. exact Q2.
Qed.

(* the shipped predictors (repeat the last input, or the default input) are idempotent and map the
   blank input to itself; a prediction made again after matching inputs arrived is then unchanged *)
Hypothesis predict_idem : forall x, predict (predict x) = predict x.
Hypothesis predict_zero : predict 0 = 0.

Lemma predval_fixed : forall hist, predict (predval predict hist) = predval predict hist.
Proof. intros hist. unfold predval. destruct (hlen hist =? 0); [exact predict_zero|apply predict_idem]. Qed.

Lemma predval_snoc : forall hist v, predval predict (hist ++ [v]) = predict v.
Proof.
  intros hist v. unfold predval. rewrite hlen_app. pose proof (hlen_nonneg hist).
  assert ((hlen hist + 1 =? 0) = false) as -> by lia. rewrite hlast_app. reflexivity.
Qed.

Lemma gq_remote_add : forall c L G h q hist low q' v,
  QI c L q hist low -> GQ c G h q hist -> (pi_frame (q_pred q) = NULL -> c <= hlen hist) ->
  q_first_incorrect q' = fi_after q v (hlen hist) -> q_pred q' = pred_after q v (hlen hist) ->
  GQ c G h q' (hist ++ [v]) /\ (pi_frame (q_pred q') = NULL -> c <= hlen (hist ++ [v])).
Proof.
  intros c L G h q hist low q' v Hqi [Gk Gp Gv] HPN F' P'.
  pose proof (hlen_nonneg hist) as Hnn. rewrite hlen_app.
  destruct (insertion_cases q v (hlen hist) Hnn (qi_p1 _ _ _ _ _ Hqi))
    as [(En & Ffi & Fpr)|[(Epf & Ef & Ev & Ffi & Fpr)|(Epf & Hfi & Hfn & Hpf)]]; rewrite <- F' in *; rewrite <- P' in *.
  - (* not predicting: every simulated frame is already known *)
    specialize (HPN En). split; [|intros _; lia].
    constructor; rewrite ?Ffi, ?Fpr.
    + intros f Hf Hfl Hc. rewrite hval_app_l by lia. apply Gk; [exact Hf|lia|exact Hc].
    + intros _ f Hf Hfl. rewrite hlen_app in Hfl. lia.
    + intros A. congruence.
  - (* the arriving input equals the prediction *)
    assert (En : pi_frame (q_pred q) <> NULL) by (unfold NULL; lia). pose proof (Gv En Ef) as Hpv.
    assert (Hpvv : predval predict (hist ++ [v]) = predval predict hist).
    { rewrite predval_snoc, <- Ev, Hpv. apply predval_fixed. }
    split.
    + constructor.
      * intros f Hf Hfl _. rewrite hlen_app in Hfl.
        destruct (Z.eq_dec f (hlen hist)) as [->|Hne].
        -- rewrite hval_snoc_new. rewrite (Gp Ef (hlen hist) Hf ltac:(lia)). congruence.
        -- rewrite hval_app_l by lia. apply Gk; [exact Hf|lia|left; exact Ef].
      * intros _ f Hf Hfl. rewrite hlen_app in Hfl. rewrite Hpvv. apply Gp; [exact Ef|exact Hf|lia].
      * intros _ _. rewrite Hpvv, <- Hpv, Fpr. exact (eq_sym Ev).
    + intros A. rewrite Fpr in A. cbn [pi_frame] in A.
      destruct (Z.eqb_spec (hlen hist) (q_last_requested q)) as [El|El]; [|unfold NULL in A; lia].
      destruct (qi_req _ _ _ _ _ Hqi) as [Rq|Rq]; unfold NULL in *; lia.
  - (* a misprediction is flagged, by this input or by an earlier one: only the frames before it are known *)
    split; [|intros A; rewrite Hpf in A; clear - A Hnn; unfold NULL in A; lia].
    constructor.
    + intros f Hf Hfl [X|X]; [contradiction|]. rewrite hlen_app in Hfl.
      destruct (Z.eq_dec (q_first_incorrect q) NULL) as [Ef|Ef].
      * assert (f < hlen hist) by (destruct Hfi as [Y|Y]; [lia|congruence]).
        rewrite hval_app_l by lia. apply Gk; [exact Hf|lia|left; exact Ef].
      * rewrite (fi_after_kept q v (hlen hist) Ef) in F'. destruct (qi_p4 _ _ _ _ _ Hqi Ef) as (_ & (Q1 & Q2) & _).
        rewrite hval_app_l by lia. apply Gk; [exact Hf|lia|right; lia].
    + intros X. contradiction.
    + intros _ X. contradiction.
Qed.

Lemma TI_remote_add : forall sp w d p gs G p' h q hist low q' v,
  QSg sp w d p gs -> TI p gs G -> nth_error (s_queues (ps_sync p)) h = Some q -> nth_error gs h = Some (hist, low) ->
  s_queues (ps_sync p') = updz (s_queues (ps_sync p)) h q' -> s_current (ps_sync p') = s_current (ps_sync p) ->
  q_first_incorrect q' = fi_after q v (hlen hist) -> q_pred q' = pred_after q v (hlen hist) ->
  TI p' (updz gs h (hist ++ [v], low)) G.
Proof.
  intros sp w d p gs G p' h q hist low q' v HQS (HG & HGI & HPN) Eq Eg Hqs' Hc' F' P'. unfold TI. rewrite Hc', Hqs'.
  pose proof (Forall2_nth _ _ _ _ _ _ (qs_qs _ _ _ _ HQS) Eq Eg) as Hqi. cbn [fst snd] in Hqi.
  destruct (gq_remote_add _ _ G h q hist low q' v Hqi (HGI _ _ _ Eq Eg) (HPN _ _ _ Eq Eg) F' P') as (HGQ' & HPN').
  assert (Hl1 : (h < length (s_queues (ps_sync p)))%nat) by (apply nth_error_Some; congruence).
  assert (Hl2 : (h < length gs)%nat) by (apply nth_error_Some; congruence).
  split; [exact HG|]. split; intros h0 q0 gh0 B C; destruct (Nat.eq_dec h h0) as [<-|Hne].
  - rewrite nth_error_updz_same in B by exact Hl1. rewrite nth_error_updz_same in C by exact Hl2.
    injection B as <-. injection C as <-. exact HGQ'.
  - rewrite nth_error_updz_other in B by exact Hne. rewrite nth_error_updz_other in C by exact Hne.
    exact (HGI h0 q0 gh0 B C).
  - rewrite nth_error_updz_same in B by exact Hl1. rewrite nth_error_updz_same in C by exact Hl2.
    injection B as <-. injection C as <-. exact HPN'.
  - rewrite nth_error_updz_other in B by exact Hne. rewrite nth_error_updz_other in C by exact Hne.
    exact (HPN h0 q0 gh0 B C).
Qed.

Lemma remote_timeline : forall sp w d p gs pl f v e G,
  QSg sp w d p gs -> TI p gs G -> 0 <= pl < ps_nplayers p -> nth_error (ps_kinds p) (Z.to_nat pl) = Some (KRemote e) ->
  f = q_last_added (qnth (ps_sync p) pl) + 1 -> q_length (qnth (ps_sync p) pl) < QLEN ->
  exists p' hist low, ev_input p pl f v = Ok p' /\ nth_error gs (Z.to_nat pl) = Some (hist, low) /\
    QSg sp w d p' (updz gs (Z.to_nat pl) (hist ++ [v], low)) /\ TI p' (updz gs (Z.to_nat pl) (hist ++ [v], low)) G.
Proof.
  intros sp w d p gs pl f v e G HQS HTI Hpl Ek Hf Hcap.
  destruct (remote_progress _ w d p gs pl f v e HQS Hpl Ek Hf Hcap)
    as (p' & gs' & E & HQ' & q & hist & low & q' & Eq & Eg & -> & Hqs' & F' & P' & Hc' & _).
  exists p', hist, low. split; [exact E|]. split; [exact Eg|]. split; [exact HQ'|].
  exact (TI_remote_add sp w d p gs G p' _ q hist low q' v HQS HTI Eq Eg Hqs' Hc' F' P').
Qed.

(* dense saving: advance_frame keeps the timeline invariant *)
Lemma advance_timeline : forall p gs g w d p' o r G,
  advance predict p = Ok (p', o, r) ->
  QS w d p gs -> JI1 w p g -> Forall (fun c => cs_last c < I32MAX) (ps_status p) ->
  Forall (fun c => cs_last c + 1 < I32MAX) (ps_status p) -> TI p gs G ->
  exists gs', QS w d p' gs' /\ TI p' gs' (replay_hist G (o_requests o)) /\
    hist_step d (ps_pending p) (local_handles p) gs gs' /\ ps_kinds p' = ps_kinds p /\ spec_step p gs' o p' /\
    Forall (truthful_lt (s_current (ps_sync p')) gs') (adv_frames G (o_requests o)) /\ sends_adv p gs gs' p' o.
Proof using predict_idem.
  intros p gs g w d p' o r G E HQS (Hw1p & HJI) Hbnd _ HTI.
  apply (advance_timeline_g false p gs w d p' o r G E HQS Hw1p Hbnd HTI).
  intros p1 o1 cf E1 HQS1 HTI1 _ HLcf.
  exact (dense_rollback_ti p1 gs g w d o1 cf G HQS1 (dense_first_save p g w p1 o1 HJI E1) Hw1p HLcf HTI1).
Qed.

(* sp = the saving mode; CI = the invariant that ties the session to the game's saved states (dense saving:
   SessionProofs.JI with a window of at least one frame; sparse saving: SessionSparse.JS with SessionTimelineSparse.SXs;
   lockstep: SessionLockstep.CIl). *)
Section Runs.
Variable sp : bool.
Variable CI : Z -> p2p -> game -> Prop.

(* one step of a run, with everything step_g says about it *)
Local Set Implicit Arguments.
Record step_ok (w d : Z) (p : p2p) (gs : list ghost) (g : game) (o : sop) (s : sres) (gs' : list ghost) (g' : game) : Prop := {
  so_pre : QSg sp w d p gs;
  so_ci_pre : CI w p g;
  so_ti_pre : TI p gs (g_hist g);
  so_ok : op_ok p o = true;
  so_step : sstep predict p o = Ok s;
  so_post : QSg sp w d (sr_state s) gs';
  so_exec : exec w g (o_requests (sr_out s)) = Some g';
  so_ci : CI w (sr_state s) g';
  so_ti : TI (sr_state s) gs' (g_hist g');
  so_hist : op_hist d p o gs gs';
  so_kinds : ps_kinds (sr_state s) = ps_kinds p;
  so_spec : spec_step p gs' (sr_out s) (sr_state s);
  so_truthful : Forall (truthful_lt (s_current (ps_sync (sr_state s))) gs') (adv_frames (g_hist g) (o_requests (sr_out s)));
  so_sends : sends_adv p gs gs' (sr_state s) (sr_out s);
}.
Lemma so_len : forall w d p gs g o s gs' g', step_ok w d p gs g o s gs' g' -> length gs' = length gs.
Proof. intros w d p gs g o s gs' g' H. exact (QS_same_len _ _ _ _ _ _ _ (so_pre H) (so_post H) (so_kinds H)). Qed.
Local Unset Implicit Arguments.

(* a run inside the space: its operations, its outputs, and the states, held histories and game states it passes through *)
Inductive steps (w d : Z) : p2p -> list ghost -> game -> list sop -> list (pout * apires) -> p2p -> list ghost -> game -> Prop :=
| steps_nil : forall p gs g, steps w d p gs g [] [] p gs g
| steps_cons : forall p gs g o s gs1 g1 ops outs p' gs' g',
    step_ok w d p gs g o s gs1 g1 -> steps w d (sr_state s) gs1 g1 ops outs p' gs' g' ->
    steps w d p gs g (o :: ops) ((sr_out s, sr_api s) :: outs) p' gs' g'.

Lemma steps_grows : forall w d p gs g ops outs p' gs' g', steps w d p gs g ops outs p' gs' g' ->
  ps_kinds p' = ps_kinds p /\ grows_gs gs gs'.
Proof.
  intros w d p gs g ops outs p' gs' g' H.
  induction H as [p gs g|p gs g o s gs1 g1 ops outs p' gs' g' Hs _ (IHk & IHg)].
  - split; [reflexivity|apply grows_gs_refl].
  - split; [exact (eq_trans IHk (so_kinds Hs))|]. apply (grows_gs_trans _ gs1 _); [|exact IHg].
    exact (op_hist_grows _ _ _ _ _ (so_len Hs) (so_hist Hs)).
Qed.

(* of what is delivered for a remote player nothing is lost, duplicated, reordered or altered *)
Lemma steps_streams : forall w d p gs g ops outs p' gs' g', steps w d p gs g ops outs p' gs' g' ->
  forall pl e hist low, 0 <= pl -> nth_error (ps_kinds p) (Z.to_nat pl) = Some (KRemote e) ->
    nth_error gs (Z.to_nat pl) = Some (hist, low) ->
    exists low', nth_error gs' (Z.to_nat pl) = Some (hist ++ remote_vals pl ops, low').
Proof.
  intros w d p gs g ops outs p' gs' g' H.
  induction H as [p gs g|p gs g o s gs1 g1 ops outs p' gs' g' Hs _ IH]; intros pl e hist low Hpl Hk A.
  - exists low. cbn [remote_vals flat_map]. rewrite app_nil_r. exact A.
  - destruct (op_hist_remote _ _ _ _ _ _ _ _ _ _ (so_pre Hs) (so_len Hs) (so_ok Hs) (so_hist Hs) Hpl Hk A) as ((low1 & A1) & _).
    cbn [fst] in A1. rewrite <- (so_kinds Hs) in Hk. destruct (IH pl e _ low1 Hpl Hk A1) as (low' & A').
    exists low'. rewrite A', <- app_assoc. change (o :: ops) with ([o] ++ ops). unfold remote_vals. rewrite flat_map_app. reflexivity.
Qed.

Lemma steps_receipts : forall w d p gs g ops outs p' gs' g', steps w d p gs g ops outs p' gs' g' ->
  (forall pl f v, In (SRemote pl f v) ops ->
     exists gh, nth_error gs' (Z.to_nat pl) = Some gh /\ 0 <= f < hlen (fst gh) /\ hval (fst gh) f = v) /\
  (forall pl e gh gh' f, 0 <= pl -> nth_error (ps_kinds p) (Z.to_nat pl) = Some (KRemote e) ->
     nth_error gs (Z.to_nat pl) = Some gh -> nth_error gs' (Z.to_nat pl) = Some gh' ->
     hlen (fst gh) <= f < hlen (fst gh') -> In (SRemote pl f (hval (fst gh') f)) ops).
Proof.
  intros w d p gs g ops outs p' gs' g' H.
  induction H as [p gs g|p gs g o s gs1 g1 ops outs p' gs' g' Hs Hst (IHd & IHc)].
  - split; [intros pl f v []|]. intros pl e gh gh' f _ _ A B Hf. rewrite A in B. injection B as <-. lia.
  - destruct (steps_grows _ _ _ _ _ _ _ _ _ _ Hst) as (_ & Hlen' & Hg').
    pose proof (so_pre Hs) as HQ. pose proof (so_ok Hs) as Hok. pose proof (so_hist Hs) as Hop.
    pose proof (so_len Hs) as Hlen1. split.
    + intros pl f v [->|Hin]; [|exact (IHd pl f v Hin)].
      (* the input that arrived with this very operation *)
      destruct (op_ok_remote _ _ _ _ Hok) as (Hpl & (e & Ek) & _).
      destruct (nth_error gs (Z.to_nat pl)) as [gh|] eqn:Eg.
      2:{ cbn [op_hist] in Hop. destruct Hop as (hist & low & X & _). congruence. }
      destruct (op_hist_remote _ _ _ _ _ _ _ _ _ _ HQ Hlen1 Hok Hop (proj1 Hpl) Ek Eg) as ((low1 & A1) & Hf).
      specialize (Hf f v eq_refl). cbn [remote_vals flat_map] in A1. rewrite Z.eqb_refl in A1. cbn [app] in A1.
      destruct (nth_error gs' (Z.to_nat pl)) as [gh'|] eqn:En'.
      2:{ apply nth_error_None in En'. assert (Z.to_nat pl < length gs1)%nat by (apply nth_error_Some; congruence). lia. }
      destruct (Hg' _ _ En') as (gh1 & ext & A & B). rewrite A1 in A. injection A as <-. cbn [fst] in B.
      exists gh'. split; [reflexivity|]. rewrite B, Hf. pose proof (hlen_nonneg (fst gh)).
      split; [unfold hlen; rewrite !app_length; cbn [length]; lia|].
      rewrite hval_app_l by (rewrite hlen_app; lia). apply hval_snoc_new.
    + intros pl e gh gh' f Hpl Hkp Ag Ag' Hf.
      destruct (op_hist_remote _ _ _ _ _ _ _ _ _ _ HQ Hlen1 Hok Hop Hpl Hkp Ag) as ((low1 & A1) & Hlab).
      rewrite <- (so_kinds Hs) in Hkp.
      destruct (Z_lt_ge_dec f (hlen (fst gh ++ remote_vals pl [o]))) as [Hlt|Hge].
      * (* f is the frame of the input this operation delivered *)
        left. destruct o as [h v|pl' f0 v0|ep st|hs|h|h dd|]; cbn [remote_vals flat_map] in Hlt, A1;
          rewrite ?app_nil_r in Hlt; try lia.
        destruct (Z.eqb_spec pl' pl) as [->|Hne]; [|rewrite app_nil_r in Hlt; lia].
        rewrite hlen_app in Hlt. cbn [app] in A1.
        assert (f = hlen (fst gh)) as -> by lia. rewrite (Hlab f0 v0 eq_refl). f_equal.
        destruct (Hg' _ _ Ag') as (gh1 & ext & A & B). rewrite A1 in A. injection A as <-. cbn [fst] in B. rewrite B.
        pose proof (hlen_nonneg (fst gh)).
        rewrite hval_app_l by (rewrite hlen_app; lia). symmetry. apply hval_snoc_new.
      * right. apply (IHc pl e _ gh' f Hpl Hkp A1 Ag'). cbn [fst]. lia.
Qed.

Lemma steps_sends : forall w d p gs g ops outs p' gs' g', steps w d p gs g ops outs p' gs' g' -> OIb p gs ->
  OIb p' gs' /\ rounds_ok (local_handles p) gs' (all_sends outs).
Proof.
  intros w d p gs g ops outs p' gs' g' H.
  induction H as [p gs g|p gs g o s gs1 g1 ops outs p' gs' g' Hs Hst IH]; intros HO.
  - split; [exact HO|constructor].
  - destruct (steps_grows _ _ _ _ _ _ _ _ _ _ Hst) as (_ & Hg').
    destruct (so_sends Hs HO) as (HO1 & Hr1). destruct (IH HO1) as (HO' & Hr'). split; [exact HO'|].
    cbn [all_sends flat_map fst]. apply Forall_app. split; [exact (rounds_ok_grows _ _ _ _ Hg' Hr1)|].
    rewrite <- (local_handles_kinds p (sr_state s) (QS_nplayers _ _ _ _ _ (so_pre Hs)) (QS_nplayers _ _ _ _ _ (so_post Hs)) (so_kinds Hs)).
    exact Hr'.
Qed.

Lemma steps_confirmed : forall w d p gs g ops outs p' gs' g', steps w d p gs g ops outs p' gs' g' ->
  Forall (confirmed_ok gs') (all_adv_frames (g_hist g) outs).
Proof.
  intros w d p gs g ops outs p' gs' g' H.
  induction H as [p gs g|p gs g o s gs1 g1 ops outs p' gs' g' Hs Hst IH]; [constructor|].
  destruct (steps_grows _ _ _ _ _ _ _ _ _ _ Hst) as (_ & Hg').
  cbn [all_adv_frames fst]. apply Forall_app. split.
  - eapply Forall_impl; [|exact (so_truthful Hs)]. intros fi Ht. exact (confirmed_ok_grows _ _ _ Hg' (truthful_confirmed_ok _ _ _ Ht)).
  - rewrite <- (exec_hist _ _ _ _ (so_exec Hs)). exact IH.
Qed.

Lemma steps_broadcast : forall w d p gs g ops outs p' gs' g', steps w d p gs g ops outs p' gs' g' ->
  ps_spectators p <> [] -> existsb (fun b => b) (ps_spectators p) = true ->
  ps_spectators p' = ps_spectators p /\ ps_next_spec p <= ps_next_spec p' /\
  all_spec_sends outs = map (fun f => (f, held_at gs' f)) (zrange_from (ps_next_spec p) (Z.to_nat (ps_next_spec p' - ps_next_spec p))).
Proof.
  intros w d p gs g ops outs p' gs' g' H.
  induction H as [p gs g|p gs g o s gs1 g1 ops outs p' gs' g' Hs Hst IH]; intros Hne Hex.
  - split; [reflexivity|]. split; [lia|]. rewrite Z.sub_diag. reflexivity.
  - destruct (steps_grows _ _ _ _ _ _ _ _ _ _ Hst) as (_ & Hg').
    pose proof (so_pre Hs) as HQ. destruct (so_spec Hs) as (Hss & n & Hsend & Hns & Hbound).
    destruct (IH ltac:(rewrite Hss; exact Hne) ltac:(rewrite Hss; exact Hex)) as (Hss' & Hmono & Hall).
    split; [congruence|].
    destruct (ps_spectators p) as [|b bs] eqn:Esp; [congruence|]. rewrite Hex in Hsend.
    specialize (Hbound ltac:(discriminate)). split; [lia|].
    unfold all_spec_sends in *. cbn [map concat fst]. rewrite Hall, Hsend.
    replace (Z.to_nat (ps_next_spec p' - ps_next_spec p)) with (n + Z.to_nat (ps_next_spec p' - ps_next_spec (sr_state s)))%nat by lia.
    rewrite zrange_app, map_app, Hns. f_equal.
    apply map_ext_in. intros f Hf. apply zrange_in in Hf. f_equal. symmetry.
    apply held_at_stable; [exact Hg'| |].
    + destruct (qs_spec _ _ _ _ HQ ltac:(rewrite Esp; discriminate)) as (A & _). lia.
    + eapply Forall_impl; [|exact Hbound]. cbv beta. intros g0 Hg0. lia.
Qed.

Lemma steps_end : forall w d p gs g ops outs p' gs' g', steps w d p gs g ops outs p' gs' g' ->
  QSg sp w d p gs -> CI w p g -> TI p gs (g_hist g) ->
  exec_outs w g outs = Some g' /\ QSg sp w d p' gs' /\ CI w p' g' /\ TI p' gs' (g_hist g').
Proof.
  intros w d p gs g ops outs p' gs' g' H.
  induction H as [p gs g|p gs g o s gs1 g1 ops outs p' gs' g' Hs _ IH]; intros HQ HC HT.
  - split; [reflexivity|]. split; [exact HQ|]. split; [exact HC|exact HT].
  - destruct (IH (so_post Hs) (so_ci Hs) (so_ti Hs)) as (Ex & R).
    split; [cbn [exec_outs]; rewrite (so_exec Hs); exact Ex|exact R].
Qed.

End Runs.

(* What a mode has to supply for the run theorems: every operation inside the space succeeds and keeps CI
   (CI_step), and advance_frame keeps the timeline invariant TI (CI_adv). *)
Section Generic.
Variable sp : bool.
Variable CI : Z -> p2p -> game -> Prop.
Hypothesis CI_step : forall p gs g w d o,
  QSg sp w d p gs -> CI w p g -> op_ok p o = true ->
  exists s g', sstep predict p o = Ok s /\ exec w g (o_requests (sr_out s)) = Some g' /\ CI w (sr_state s) g'.
Hypothesis CI_adv : forall p gs g w d p' o r G,
  advance predict p = Ok (p', o, r) ->
  QSg sp w d p gs -> CI w p g -> Forall (fun c => cs_last c < I32MAX) (ps_status p) ->
  Forall (fun c => cs_last c + 1 < I32MAX) (ps_status p) -> TI p gs G ->
  exists gs', QSg sp w d p' gs' /\ TI p' gs' (replay_hist G (o_requests o)) /\
    hist_step d (ps_pending p) (local_handles p) gs gs' /\ ps_kinds p' = ps_kinds p /\ spec_step p gs' o p' /\
    Forall (truthful_lt (s_current (ps_sync p')) gs') (adv_frames G (o_requests o)) /\ sends_adv p gs gs' p' o.
Hypothesis CI_frame : forall w p g, CI w p g -> gframe g = s_current (ps_sync p).
Hypothesis CI_start : forall n w d kinds eps nspec, 1 <= w -> CI w (session_start n w sp d kinds eps nspec) (game0 w).
(* every lemma of this section takes the first three hypotheses and the predictor's laws, used or not, so that a
   mode instantiates them all alike; those from the initial state take CI_start as well.  lia drags CI_start
   into the proof term, so a proof that is not to take it cannot call lia. *)
Set Default Proof Using "CI_step CI_adv CI_frame predict_idem predict_zero".

Lemma step_g : forall p gs g w d o,
  QSg sp w d p gs -> CI w p g -> TI p gs (g_hist g) -> op_ok p o = true ->
  exists s gs' g', sstep predict p o = Ok s /\ QSg sp w d (sr_state s) gs' /\
    exec w g (o_requests (sr_out s)) = Some g' /\ CI w (sr_state s) g' /\ TI (sr_state s) gs' (g_hist g') /\
    op_hist d p o gs gs' /\ ps_kinds (sr_state s) = ps_kinds p /\ spec_step p gs' (sr_out s) (sr_state s) /\
    Forall (truthful_lt (s_current (ps_sync (sr_state s))) gs') (adv_frames (g_hist g) (o_requests (sr_out s))) /\
    sends_adv p gs gs' (sr_state s) (sr_out s).
Proof.
  intros p gs g w d o HQS HJI HTI Hok.
  destruct (CI_step p gs g w d o HQS HJI Hok) as (s & g' & Es & Ex & HJ').
  destruct o as [h v|pl f v|ep st|hs|h|h dd|]; try discriminate Hok; cbn [sstep] in Es |- *.
  - (* add_local_input *)
    destruct (local_progress _ w d p gs h v HQS) as (HQl & Hs). pose proof (local_quiet p h v) as Hq.
    destruct (api_add_local_input p h v) as [p1 r1]. cbn [fst] in HQl, Hs, Hq. injection Es as <-.
    cbn [sr_state sr_out out0 o_requests exec] in Ex, HJ'. injection Ex as <-.
    exists (mksr p1 out0 r1), gs, g. cbn [sr_state sr_out out0 o_requests exec adv_frames op_hist].
    split; [reflexivity|]. split; [exact HQl|]. split; [reflexivity|]. split; [exact HJ'|].
    split; [exact (TI_sync _ _ _ _ Hs HTI)|]. split; [reflexivity|]. split; [exact (proj1 (proj2 Hq))|].
    split; [exact (quiet_spec_step _ _ _ (qs_spec _ _ _ _ HQS) Hq)|]. split; [constructor|].
    exact (quiet_sends_adv _ _ _ _ Hq (fun _ _ => eq_refl)).
  - (* an arriving remote input *)
    destruct (op_ok_remote _ _ _ _ Hok) as (Hpl & (e & Ek) & Hf & Hcap).
    destruct (remote_timeline _ w d p gs pl f v e (g_hist g) HQS HTI Hpl Ek Hf Hcap) as (p' & hist & low & E & Eg & HQ' & HT').
    rewrite E in Es |- *. cbn [res_bind] in Es |- *. injection Es as <-. pose proof (ev_input_quiet _ _ _ _ _ E) as Hq.
    cbn [sr_state sr_out out0 o_requests exec] in Ex, HJ'. injection Ex as <-.
    exists (mksr p' out0 AOk), (updz gs (Z.to_nat pl) (hist ++ [v], low)), g. cbn [sr_state sr_out out0 o_requests exec adv_frames op_hist].
    split; [reflexivity|]. split; [exact HQ'|]. split; [reflexivity|]. split; [exact HJ'|]. split; [exact HT'|].
    split; [exists hist, low; split; [exact Eg|reflexivity]|]. split; [exact (proj1 (proj2 Hq))|].
    split; [|split; [constructor|]].
    + apply quiet_spec_step; [|exact Hq].
      eapply spec_ok_grow; [exact (qs_spec _ _ _ _ HQS)|reflexivity|reflexivity|reflexivity|].
      eapply grow_updz; [exact Eg|rewrite hlen_app; apply Z.le_succ_diag_r].
    + apply quiet_sends_adv; [exact Hq|]. intros h0 Hin.
      apply (local_handles_spec p h0 (QS_nplayers _ _ _ _ _ HQS)) in Hin. destruct Hin as (Hr0 & Hk0).
      assert (Z.to_nat pl <> Z.to_nat h0) by (intros X; rewrite X, Hk0 in Ek; discriminate Ek).
      rewrite nth_error_updz_other by assumption. reflexivity.
  - (* gossip *)
    injection Es as <-. destruct (gossip_quiet p ep st) as (Hq & Hs).
    cbn [sr_state sr_out out0 o_requests exec] in Ex, HJ'. injection Ex as <-.
    exists (mksr (gossip p ep st) out0 AOk), gs, g. cbn [sr_state sr_out out0 o_requests exec adv_frames op_hist].
    split; [reflexivity|]. split; [exact (gossip_progress _ _ _ _ _ _ _ HQS (op_ok_gossip _ _ _ Hok))|].
    split; [reflexivity|]. split; [exact HJ'|]. split; [exact (TI_sync _ _ _ _ Hs HTI)|]. split; [reflexivity|].
    split; [exact (proj1 (proj2 Hq))|]. split; [exact (quiet_spec_step _ _ _ (qs_spec _ _ _ _ HQS) Hq)|].
    split; [constructor|]. exact (quiet_sends_adv _ _ _ _ Hq (fun _ _ => eq_refl)).
  - (* advance_frame *)
    pose proof (op_ok_advance _ Hok) as Hbnd1. pose proof (op_ok_advance_weak _ Hok) as Hbnd.
    destruct (advance predict p) as [[[p' o] r]| |] eqn:E; cbn [res_bind] in Es |- *; try discriminate. injection Es as <-.
    cbn [sr_state sr_out] in Ex, HJ'.
    destruct (CI_adv p gs g w d p' o r (g_hist g) E HQS HJI Hbnd Hbnd1 HTI) as (gs' & HQ' & HTI' & Hh' & Hkk' & Hss' & HTR' & Hsd').
    exists (mksr p' o r), gs', g'. cbn [sr_state sr_out]. split; [reflexivity|]. split; [exact HQ'|]. split; [exact Ex|].
    split; [exact HJ'|]. split; [rewrite (exec_hist _ _ _ _ Ex); exact HTI'|]. split; [exact Hh'|].
    split; [exact Hkk'|]. split; [exact Hss'|]. split; [exact HTR'|exact Hsd'].
Qed.

Lemma step_timeline_g : forall p gs g w d o,
  QSg sp w d p gs -> CI w p g -> TI p gs (g_hist g) -> op_ok p o = true ->
  exists s gs' g', sstep predict p o = Ok s /\ QSg sp w d (sr_state s) gs' /\
    exec w g (o_requests (sr_out s)) = Some g' /\ CI w (sr_state s) g' /\ TI (sr_state s) gs' (g_hist g') /\
    op_hist d p o gs gs' /\ ps_kinds (sr_state s) = ps_kinds p /\ spec_step p gs' (sr_out s) (sr_state s) /\
    Forall (truthful_lt (s_current (ps_sync (sr_state s))) gs') (adv_frames (g_hist g) (o_requests (sr_out s))).
Proof.
  intros p gs g w d o HQS HJI HTI Hok.
  destruct (step_g p gs g w d o HQS HJI HTI Hok) as (s & gs' & g' & A & B & C & D & E & F & G & H & I & _).
  exists s, gs', g'. repeat (split; [assumption|]). assumption.
Qed.

(* C03 on one session, call by call: in every reachable state (the invariants hold there: run_timeline_g) an
   operation inside the space succeeds and EVERY AdvanceFrame request it emits - the first simulation of a new
   frame and every re-simulation after a Load alike - is truthful (truthful1) against the inputs the session
   holds when the call returns *)
Theorem requests_truthful_step_g : forall p gs g w d o,
  QSg sp w d p gs -> CI w p g -> TI p gs (g_hist g) -> op_ok p o = true ->
  exists s gs' g', sstep predict p o = Ok s /\ QSg sp w d (sr_state s) gs' /\ CI w (sr_state s) g' /\
    TI (sr_state s) gs' (g_hist g') /\ op_hist d p o gs gs' /\
    Forall (truthful_lt (s_current (ps_sync (sr_state s))) gs') (adv_frames (g_hist g) (o_requests (sr_out s))).
Proof.
  intros p gs g w d o HQS HJI HTI Hok.
  destruct (step_g p gs g w d o HQS HJI HTI Hok) as (s & gs' & g' & A & B & _ & C & D & E & _ & _ & F & _).
  exists s, gs', g'. split; [exact A|]. split; [exact B|]. split; [exact C|]. split; [exact D|]. split; [exact E|exact F].
Qed.

(* local players, one call at a time: an operation inside the space changes the held histories exactly as
   op_hist says - advance_frame appends to a local player's history at most its pending input (the value of the
   last add_local_input for it), preceded by the d blank inputs of the input delay when it is the player's first *)
Theorem held_inputs_step_g : forall p gs g w d o,
  QSg sp w d p gs -> CI w p g -> TI p gs (g_hist g) -> op_ok p o = true ->
  exists s gs' g', sstep predict p o = Ok s /\ QSg sp w d (sr_state s) gs' /\ CI w (sr_state s) g' /\
    TI (sr_state s) gs' (g_hist g') /\ op_hist d p o gs gs'.
Proof.
  intros p gs g w d o HQS HJI HTI Hok.
  destruct (requests_truthful_step_g p gs g w d o HQS HJI HTI Hok) as (s & gs' & g' & A & B & C & D & E & _).
  exists s, gs', g'. split; [exact A|]. split; [exact B|]. split; [exact C|]. split; [exact D|exact E].
Qed.

Theorem confirmed_frame_monotone_g : forall p gs g w d o s cf cf',
  QSg sp w d p gs -> CI w p g -> TI p gs (g_hist g) -> op_ok p o = true ->
  sstep predict p o = Ok s -> confirmed_frame p = Ok cf -> confirmed_frame (sr_state s) = Ok cf' -> cf <= cf'.
Proof.
  intros p gs g w d o s cf cf' HQS HJI HTI Hok Es Ecf Ecf'.
  destruct (step_timeline_g p gs g w d o HQS HJI HTI Hok) as (s0 & gs' & g' & A & B & _ & _ & _ & E & K & _ & _).
  rewrite Es in A. injection A as <-.
  exact (confirmed_frame_grows sp w d p gs _ gs' cf cf' HQS B (op_hist_grows _ _ _ _ _ (QS_same_len _ _ _ _ _ _ _ HQS B K) E) Ecf Ecf').
Qed.

(* no assert fires on a run inside the space *)
Lemma run_steps_g : forall ops p gs g w d,
  QSg sp w d p gs -> CI w p g -> TI p gs (g_hist g) ->
  srun_in predict p ops = Err \/
  exists p' outs gs' g', srun_in predict p ops = Ok (p', outs) /\ srun predict p ops = Ok (p', outs) /\
    steps sp CI w d p gs g ops outs p' gs' g'.
Proof.
  induction ops as [|o ops IH]; intros p gs g w d HQS HJI HTI.
  - right. exists p, [], gs, g. split; [reflexivity|]. split; [reflexivity|constructor].
  - cbn [srun_in srun]. destruct (op_ok p o) eqn:Hok; [|left; reflexivity].
    destruct (step_g p gs g w d o HQS HJI HTI Hok) as (s & gs1 & g1 & Es & HQ1 & Ex1 & HJ1 & HT1 & Hrest).
    rewrite Es. cbn [res_bind].
    destruct (IH (sr_state s) gs1 g1 w d HQ1 HJ1 HT1) as [Herr|(p' & outs & gs' & g' & E1 & E2 & Hst)].
    + left. rewrite Herr. reflexivity.
    + right. rewrite E1, E2. cbn [res_bind]. exists p', ((sr_out s, sr_api s) :: outs), gs', g'.
      split; [reflexivity|]. split; [reflexivity|]. apply steps_cons with (gs1 := gs1) (g1 := g1); [|exact Hst].
      destruct Hrest as (R1 & R2 & R3 & R4 & R5). constructor; assumption.
Qed.

Theorem run_timeline_g : forall ops p gs g w d,
  QSg sp w d p gs -> CI w p g -> TI p gs (g_hist g) ->
  srun_in predict p ops = Err \/
  exists p' outs gs' g', srun_in predict p ops = Ok (p', outs) /\ srun predict p ops = Ok (p', outs) /\
    exec_outs w g outs = Some g' /\ QSg sp w d p' gs' /\ CI w p' g' /\ TI p' gs' (g_hist g').
Proof.
  intros ops p gs g w d HQS HJI HTI.
  destruct (run_steps_g ops p gs g w d HQS HJI HTI) as [E|(p' & outs & gs' & g' & E1 & E2 & Hst)]; [left; exact E|right].
  exists p', outs, gs', g'. split; [exact E1|]. split; [exact E2|]. exact (steps_end sp CI _ _ _ _ _ _ _ _ _ _ Hst HQS HJI HTI).
Qed.

(* the run theorem for what leaves and what arrives: every round handed to the remote players is a frame together
   with, for every local player, the input the session holds (and simulates) for that player and frame; every
   remote input (player, frame, value) that arrived is held as that player's input for that frame *)
Theorem run_sends_g : forall ops p gs g w d,
  QSg sp w d p gs -> CI w p g -> TI p gs (g_hist g) -> OIb p gs ->
  srun_in predict p ops = Err \/
  exists p' outs gs' g', srun_in predict p ops = Ok (p', outs) /\ exec_outs w g outs = Some g' /\
    QSg sp w d p' gs' /\ CI w p' g' /\ TI p' gs' (g_hist g') /\ OIb p' gs' /\ grows_gs gs gs' /\
    ps_kinds p' = ps_kinds p /\ rounds_ok (local_handles p) gs' (all_sends outs) /\
    (forall pl f v, In (SRemote pl f v) ops ->
      exists gh, nth_error gs' (Z.to_nat pl) = Some gh /\ 0 <= f < hlen (fst gh) /\ hval (fst gh) f = v) /\
    (forall pl e gh gh' f, 0 <= pl -> nth_error (ps_kinds p) (Z.to_nat pl) = Some (KRemote e) ->
      nth_error gs (Z.to_nat pl) = Some gh -> nth_error gs' (Z.to_nat pl) = Some gh' ->
      hlen (fst gh) <= f < hlen (fst gh') -> In (SRemote pl f (hval (fst gh') f)) ops) /\
    Forall (confirmed_ok gs') (all_adv_frames (g_hist g) outs).
Proof.
  intros ops p gs g w d HQS HJI HTI HO.
  destruct (run_steps_g ops p gs g w d HQS HJI HTI) as [E|(p' & outs & gs' & g' & E1 & _ & Hst)]; [left; exact E|right].
  destruct (steps_end sp CI _ _ _ _ _ _ _ _ _ _ Hst HQS HJI HTI) as (Ex & HQ' & HJ' & HT').
  destruct (steps_grows sp CI _ _ _ _ _ _ _ _ _ _ Hst) as (Hk & Hg). destruct (steps_sends sp CI _ _ _ _ _ _ _ _ _ _ Hst HO) as (HO' & Hr).
  destruct (steps_receipts sp CI _ _ _ _ _ _ _ _ _ _ Hst) as (Hd & Hc).
  exists p', outs, gs', g'. split; [exact E1|]. split; [exact Ex|]. split; [exact HQ'|]. split; [exact HJ'|]. split; [exact HT'|].
  split; [exact HO'|]. split; [exact Hg|]. split; [exact Hk|]. split; [exact Hr|]. split; [exact Hd|]. split; [exact Hc|].
  exact (steps_confirmed sp CI _ _ _ _ _ _ _ _ _ _ Hst).
Qed.

Definition start_ok (n w d : Z) (kinds : list pkind) (eps : list (list Z)) (nspec : nat) : Prop :=
  QSg sp w d (session_start n w sp d kinds eps nspec) (repeat ([], 0) (Z.to_nat n)) /\
  CI w (session_start n w sp d kinds eps nspec) (game0 w).

Lemma start_ok_g : forall n w d kinds eps nspec,
  1 <= w -> 0 <= d -> w + d + 3 <= QLEN -> 0 < n -> Z.of_nat (length kinds) = n -> players_only kinds ->
  start_ok n w d kinds eps nspec.
Proof using All.
  intros n w d kinds eps nspec Hw Hd Hcap Hn Hlen Hpl.
  split; [exact (QS_start_g sp n w d kinds eps nspec Hw Hd Hcap Hn Hlen Hpl)|exact (CI_start n w d kinds eps nspec Hw)].
Qed.

Lemma reachable_g : forall ops n w d kinds eps nspec p outs,
  start_ok n w d kinds eps nspec ->
  srun_in predict (session_start n w sp d kinds eps nspec) ops = Ok (p, outs) ->
  exists g gs, steps sp CI w d (session_start n w sp d kinds eps nspec) (repeat ([], 0) (Z.to_nat n)) (game0 w) ops outs p gs g /\
    exec_outs w (game0 w) outs = Some g /\ QSg sp w d p gs /\ CI w p g /\ TI p gs (g_hist g).
Proof.
  intros ops n w d kinds eps nspec p outs (HQ0 & HC0) H. pose proof (TI_start_g sp n w d kinds eps nspec) as HT0.
  destruct (run_steps_g ops _ _ (game0 w) w d HQ0 HC0 HT0) as [E|(p' & outs' & gs & g & E1 & _ & Hst)]; [congruence|].
  rewrite H in E1. injection E1 as <- <-. exists g, gs. split; [exact Hst|]. exact (steps_end sp CI _ _ _ _ _ _ _ _ _ _ Hst HQ0 HC0 HT0).
Qed.

Theorem invariants_reachable_g : forall ops n w d kinds eps nspec p outs,
  1 <= w -> 0 <= d -> w + d + 3 <= QLEN -> 0 < n -> Z.of_nat (length kinds) = n -> players_only kinds ->
  srun_in predict (session_start n w sp d kinds eps nspec) ops = Ok (p, outs) ->
  exists g gs, exec_outs w (game0 w) outs = Some g /\ QSg sp w d p gs /\ CI w p g /\ TI p gs (g_hist g).
Proof using All.
  intros ops n w d kinds eps nspec p outs Hw Hd Hcap Hn Hlen Hpl H.
  destruct (reachable_g ops n w d kinds eps nspec p outs (start_ok_g n w d kinds eps nspec Hw Hd Hcap Hn Hlen Hpl) H) as (g & gs & _ & R).
  exists g, gs. exact R.
Qed.

(* C01 on one session, every run inside the space: every frame up to the last confirmed frame that
   the game has simulated was last simulated, for every player, with the input the session holds
   for that frame and player (the histories gs of the invariant QS) *)
Theorem confirmed_frames_use_held_inputs_g : forall ops n w d kinds eps nspec p outs,
  1 <= w -> 0 <= d -> w + d + 3 <= QLEN -> 0 < n -> Z.of_nat (length kinds) = n -> players_only kinds ->
  srun_in predict (session_start n w sp d kinds eps nspec) ops = Ok (p, outs) ->
  exists g gs, exec_outs w (game0 w) outs = Some g /\ QSg sp w d p gs /\ gframe g = s_current (ps_sync p) /\
    forall h hist low f, nth_error gs h = Some (hist, low) ->
      0 <= f <= s_last_confirmed (ps_sync p) -> f < s_current (ps_sync p) ->
      f < hlen hist /\ gvalL (g_hist g) f h = hval hist f.
Proof using All.
  intros ops n w d kinds eps nspec p outs Hw Hd Hcap Hn Hlen Hpl H.
  destruct (invariants_reachable_g ops n w d kinds eps nspec p outs Hw Hd Hcap Hn Hlen Hpl H) as (g & gs & Ex & HQS & HJ & HT).
  exists g, gs. split; [exact Ex|]. split; [exact HQS|]. split; [exact (CI_frame _ _ _ HJ)|].
  intros h hist low f. exact (TI_confirmed_known _ _ _ _ _ _ h hist low f HQS HT).
Qed.

(* remote players in closed form: every confirmed, simulated frame f was last simulated with the f-th
   input delivered for that player during the run *)
Theorem confirmed_frames_use_delivered_inputs_g : forall ops n w d kinds eps nspec p outs,
  1 <= w -> 0 <= d -> w + d + 3 <= QLEN -> 0 < n -> Z.of_nat (length kinds) = n -> players_only kinds ->
  srun_in predict (session_start n w sp d kinds eps nspec) ops = Ok (p, outs) ->
  exists g, exec_outs w (game0 w) outs = Some g /\ gframe g = s_current (ps_sync p) /\
    forall pl e f, 0 <= pl -> nth_error kinds (Z.to_nat pl) = Some (KRemote e) ->
      0 <= f <= s_last_confirmed (ps_sync p) -> f < s_current (ps_sync p) ->
      f < hlen (remote_vals pl ops) /\ gvalL (g_hist g) f (Z.to_nat pl) = hval (remote_vals pl ops) f.
Proof using All.
  intros ops n w d kinds eps nspec p outs Hw Hd Hcap Hn Hlen Hpl H.
  pose proof (start_ok_g n w d kinds eps nspec Hw Hd Hcap Hn Hlen Hpl) as Hst0. pose proof (proj1 Hst0) as HQ0.
  destruct (reachable_g ops n w d kinds eps nspec p outs Hst0 H) as (g & gs & Hst & Ex & HQS & HJ & HT).
  exists g. split; [exact Ex|]. split; [exact (CI_frame _ _ _ HJ)|].
  intros pl e f Hp0 Hk Hf Hfc.
  destruct (steps_streams sp CI _ _ _ _ _ _ _ _ _ _ Hst pl e [] 0 Hp0 Hk (start_ghost_nth _ _ _ _ _ _ _ _ _ HQ0 Hk)) as (low' & Eg).
  exact (TI_confirmed_known _ _ _ _ _ _ _ _ low' f HQS HT Eg Hf Hfc).
Qed.

(* C06, host half: everything the host handed to its spectators is frame 0, 1, 2, ... each once, in order, with the
   inputs held for it - which are the inputs the host's own game last simulated every confirmed frame with *)
Lemma host_broadcast_from_g : forall ops n w d kinds eps nspec p outs,
  start_ok n w d kinds eps nspec -> (0 < nspec)%nat ->
  srun_in predict (session_start n w sp d kinds eps nspec) ops = Ok (p, outs) ->
  exists g gs, exec_outs w (game0 w) outs = Some g /\ QSg sp w d p gs /\ CI w p g /\ TI p gs (g_hist g) /\
    all_spec_sends outs = map (fun f => (f, held_at gs f)) (zrange_from 0 (Z.to_nat (ps_next_spec p))) /\
    spec_ok p gs /\ ps_spectators p <> [].
Proof.
  intros ops n w d kinds eps [|k] p outs Hst0 Hns H; [inversion Hns|].
  destruct (reachable_g ops n w d kinds eps (S k) p outs Hst0 H) as (g & gs & Hst & Ex & HQS & HJ & HT).
  destruct (steps_broadcast sp CI _ _ _ _ _ _ _ _ _ _ Hst) as (Hss & _ & Hall); [discriminate|reflexivity|].
  change (ps_next_spec (session_start n w sp d kinds eps (S k))) with 0 in Hall. rewrite Z.sub_0_r in Hall.
  exists g, gs. split; [exact Ex|]. split; [exact HQS|]. split; [exact HJ|]. split; [exact HT|]. split; [exact Hall|].
  split; [exact (qs_spec _ _ _ _ HQS)|]. rewrite Hss. discriminate.
Qed.

(* C06, host half, from the start of a session with spectators *)
Theorem host_broadcast_is_confirmed_timeline_g : forall ops n w d kinds eps nspec p outs,
  1 <= w -> 0 <= d -> w + d + 3 <= QLEN -> 0 < n -> Z.of_nat (length kinds) = n -> players_only kinds -> (0 < nspec)%nat ->
  srun_in predict (session_start n w sp d kinds eps nspec) ops = Ok (p, outs) ->
  exists gs, QSg sp w d p gs /\
    all_spec_sends outs = map (fun f => (f, held_at gs f)) (zrange_from 0 (Z.to_nat (ps_next_spec p))) /\
    0 <= ps_next_spec p /\ s_last_confirmed (ps_sync p) + 1 <= ps_next_spec p /\
    Forall (fun g : ghost => ps_next_spec p <= hlen (fst g)) gs.
Proof using All.
  intros ops n w d kinds eps nspec p outs Hw Hd Hcap Hn Hlen Hpl Hns H.
  destruct (host_broadcast_from_g ops n w d kinds eps nspec p outs (start_ok_g n w d kinds eps nspec Hw Hd Hcap Hn Hlen Hpl) Hns H)
    as (g & gs & _ & HQS & _ & _ & Hall & Hsok & Hne).
  exists gs. split; [exact HQS|]. split; [exact Hall|exact (Hsok Hne)].
Qed.

(* the same, together with the game (one statement about one [gs]) *)
Theorem host_broadcast_and_game_g : forall ops n w d kinds eps nspec p outs,
  1 <= w -> 0 <= d -> w + d + 3 <= QLEN -> 0 < n -> Z.of_nat (length kinds) = n -> players_only kinds -> (0 < nspec)%nat ->
  srun_in predict (session_start n w sp d kinds eps nspec) ops = Ok (p, outs) ->
  exists g gs, exec_outs w (game0 w) outs = Some g /\ QSg sp w d p gs /\
    all_spec_sends outs = map (fun f => (f, held_at gs f)) (zrange_from 0 (Z.to_nat (ps_next_spec p))) /\
    0 <= ps_next_spec p /\ s_last_confirmed (ps_sync p) + 1 <= ps_next_spec p /\
    (forall h hist low f, nth_error gs h = Some (hist, low) ->
       0 <= f <= s_last_confirmed (ps_sync p) -> f < s_current (ps_sync p) ->
       f < hlen hist /\ gvalL (g_hist g) f h = hval hist f).
Proof using All.
  intros ops n w d kinds eps nspec p outs Hw Hd Hcap Hn Hlen Hpl Hns H.
  destruct (host_broadcast_from_g ops n w d kinds eps nspec p outs (start_ok_g n w d kinds eps nspec Hw Hd Hcap Hn Hlen Hpl) Hns H)
    as (g & gs & Ex & HQS & _ & HT & Hall & Hsok & Hne).
  destruct (Hsok Hne) as (S1 & S2 & _).
  exists g, gs. split; [exact Ex|]. split; [exact HQS|]. split; [exact Hall|]. split; [exact S1|]. split; [exact S2|].
  intros h hist low f. exact (TI_confirmed_known _ _ _ _ _ _ h hist low f HQS HT).
Qed.

(* what a session sends for its local players is what it simulates for them, and what it received for a remote
   player is what it simulates for that player; here without the first of these conjuncts, which the modes phrase
   differently (the invariants at the end of the run stand in its place) *)
Lemma sends_and_receipts_from_g : forall ops n w d kinds eps nspec p outs,
  start_ok n w d kinds eps nspec ->
  srun_in predict (session_start n w sp d kinds eps nspec) ops = Ok (p, outs) ->
  exists g gs, exec_outs w (game0 w) outs = Some g /\ QSg sp w d p gs /\ CI w p g /\ TI p gs (g_hist g) /\
    rounds_ok (local_handles p) gs (all_sends outs) /\
    (forall pl f v, In (SRemote pl f v) ops ->
      exists gh, nth_error gs (Z.to_nat pl) = Some gh /\ 0 <= f < hlen (fst gh) /\ hval (fst gh) f = v) /\
    (forall pl e gh f, 0 <= pl -> nth_error kinds (Z.to_nat pl) = Some (KRemote e) ->
      nth_error gs (Z.to_nat pl) = Some gh -> 0 <= f < hlen (fst gh) -> In (SRemote pl f (hval (fst gh) f)) ops) /\
    ps_kinds p = kinds /\ OB p gs /\ Forall (confirmed_ok gs) (all_adv_frames [] outs).
Proof.
  intros ops n w d kinds eps nspec p outs Hst0 H.
  destruct (reachable_g ops n w d kinds eps nspec p outs Hst0 H) as (g & gs & Hst & Ex & HQS & HJ & HT).
  destruct (steps_grows sp CI _ _ _ _ _ _ _ _ _ _ Hst) as (Hk & _). destruct (steps_receipts sp CI _ _ _ _ _ _ _ _ _ _ Hst) as (Hd & Hc).
  destruct (steps_sends sp CI _ _ _ _ _ _ _ _ _ _ Hst (conj (OI_start sp n w d kinds eps nspec) (OB_start sp n w d kinds eps nspec))) as ((_ & HB) & Hr).
  exists g, gs. split; [exact Ex|]. split; [exact HQS|]. split; [exact HJ|]. split; [exact HT|].
  split; [rewrite (local_handles_kinds _ p (QS_nplayers _ _ _ _ _ (proj1 Hst0)) (QS_nplayers _ _ _ _ _ HQS) Hk); exact Hr|].
  split; [exact Hd|]. split; [|split; [exact Hk|split; [exact HB|exact (steps_confirmed sp CI _ _ _ _ _ _ _ _ _ _ Hst)]]].
  intros pl e gh f Hpl0 Hkp Ag Hf.
  exact (Hc pl e ([], 0) gh f Hpl0 Hkp (start_ghost_nth _ _ _ _ _ _ _ _ _ (proj1 Hst0) Hkp) Ag Hf).
Qed.

(* the same from the initial state, at every confirmed, simulated frame *)
Theorem sends_and_receipts_g : forall ops n w d kinds eps nspec p outs,
  1 <= w -> 0 <= d -> w + d + 3 <= QLEN -> 0 < n -> Z.of_nat (length kinds) = n -> players_only kinds ->
  srun_in predict (session_start n w sp d kinds eps nspec) ops = Ok (p, outs) ->
  exists g gs, exec_outs w (game0 w) outs = Some g /\ QSg sp w d p gs /\ gframe g = s_current (ps_sync p) /\
    (forall h hist low f, nth_error gs h = Some (hist, low) ->
       0 <= f <= s_last_confirmed (ps_sync p) -> f < s_current (ps_sync p) ->
       f < hlen hist /\ gvalL (g_hist g) f h = hval hist f) /\
    rounds_ok (local_handles p) gs (all_sends outs) /\
    (forall pl f v, In (SRemote pl f v) ops ->
      exists gh, nth_error gs (Z.to_nat pl) = Some gh /\ 0 <= f < hlen (fst gh) /\ hval (fst gh) f = v) /\
    (forall pl e gh f, 0 <= pl -> nth_error kinds (Z.to_nat pl) = Some (KRemote e) ->
      nth_error gs (Z.to_nat pl) = Some gh -> 0 <= f < hlen (fst gh) -> In (SRemote pl f (hval (fst gh) f)) ops) /\
    ps_kinds p = kinds /\ OB p gs /\ Forall (confirmed_ok gs) (all_adv_frames [] outs).
Proof using All.
  intros ops n w d kinds eps nspec p outs Hw Hd Hcap Hn Hlen Hpl H.
  destruct (sends_and_receipts_from_g ops n w d kinds eps nspec p outs (start_ok_g n w d kinds eps nspec Hw Hd Hcap Hn Hlen Hpl) H)
    as (g & gs & Ex & HQS & HJ & HT & Hrest).
  exists g, gs. split; [exact Ex|]. split; [exact HQS|]. split; [exact (CI_frame _ _ _ HJ)|]. split; [|exact Hrest].
  intros h hist low f. exact (TI_confirmed_known _ _ _ _ _ _ h hist low f HQS HT).
Qed.

Unset Default Proof Using.
End Generic.

Lemma dense_CI_step : forall p gs g w d o,
  QS w d p gs -> JI1 w p g -> op_ok p o = true ->
  exists s g', sstep predict p o = Ok s /\ exec w g (o_requests (sr_out s)) = Some g' /\ JI1 w (sr_state s) g'.
Proof.
  intros p gs g w d o HQS (Hw1p & HJI) Hok.
  destruct (step_in_space predict p gs g w d o HQS HJI Hw1p Hok) as (s & gs' & g' & Es & _ & Ex & HJ').
  exists s, g'. split; [exact Es|]. split; [exact Ex|]. split; [exact Hw1p|exact HJ'].
Qed.

Lemma dense_CI_start : forall n w d kinds eps nspec, 1 <= w -> JI1 w (session_start n w false d kinds eps nspec) (game0 w).
Proof using predict predict_idem. intros n w d kinds eps nspec Hw. split; [exact Hw|]. apply JI_start. lia. Qed.

Lemma JI1_frame : forall w p g, JI1 w p g -> gframe g = s_current (ps_sync p).
Proof. intros w p g (_ & H). exact (ji_frame _ _ _ H). Qed.

Definition step_timeline := step_timeline_g false JI1 dense_CI_step advance_timeline JI1_frame.

Definition host_broadcast_and_game := host_broadcast_and_game_g false JI1 dense_CI_step advance_timeline JI1_frame dense_CI_start.

Definition run_sends := run_sends_g false JI1 dense_CI_step advance_timeline JI1_frame.

Definition sends_and_receipts := sends_and_receipts_g false JI1 dense_CI_step advance_timeline JI1_frame dense_CI_start.

Definition confirmed_frames_use_held_inputs :=
  confirmed_frames_use_held_inputs_g false JI1 dense_CI_step advance_timeline JI1_frame dense_CI_start.

Definition confirmed_frames_use_delivered_inputs :=
  confirmed_frames_use_delivered_inputs_g false JI1 dense_CI_step advance_timeline JI1_frame dense_CI_start.

Definition held_inputs_step := held_inputs_step_g false JI1 dense_CI_step advance_timeline JI1_frame.

Definition host_broadcast_is_confirmed_timeline :=
  host_broadcast_is_confirmed_timeline_g false JI1 dense_CI_step advance_timeline JI1_frame dense_CI_start.

Definition invariants_reachable := invariants_reachable_g false JI1 dense_CI_step advance_timeline JI1_frame dense_CI_start.

Definition requests_truthful_step := requests_truthful_step_g false JI1 dense_CI_step advance_timeline JI1_frame.

Definition confirmed_frame_monotone := confirmed_frame_monotone_g false JI1 dense_CI_step advance_timeline JI1_frame.

(* C09's premise: at every call boundary of a run inside the space, the state saved for a confirmed
   frame F that is still inside the saved-state window is the serial replay of the held inputs of the
   frames before F - for every player.  (A checksum of that state is therefore the same on every peer
   that holds the same inputs.) *)
Theorem confirmed_saved_states_are_replays : forall ops n w d kinds eps nspec p outs,
  1 <= w -> 0 <= d -> w + d + 3 <= QLEN -> 0 < n -> Z.of_nat (length kinds) = n -> players_only kinds ->
  srun_in predict (session_start n w false d kinds eps nspec) ops = Ok (p, outs) ->
  exists g gs, exec_outs w (game0 w) outs = Some g /\ QS w d p gs /\
    forall F, Z.max 0 (s_current (ps_sync p) - w) <= F <= s_current (ps_sync p) - 1 -> F <= s_last_confirmed (ps_sync p) ->
      exists H, nth (Z.to_nat (F mod (w + 1))) (g_cells g) (NULL, []) = (F, H) /\ cell_frame (ps_sync p) F = F /\
        forall h hist low f, nth_error gs h = Some (hist, low) -> 0 <= f < F -> gvalL H f h = hval hist f.
Proof.
  intros ops n w d kinds eps nspec p outs Hw Hd Hcap Hn Hlen Hpl H.
  destruct (invariants_reachable ops n w d kinds eps nspec p outs Hw Hd Hcap Hn Hlen Hpl H) as (g & gs & Ex & HQS & (_ & HJ) & HT).
  exists g, gs. split; [exact Ex|]. split; [exact HQS|].
  intros F HF HFL.
  destruct HJ as [Jw Jmp Jfr Jcur Jroll]. destruct (Jroll Hw) as (_ & _ & (_ & _ & _ & Hcells)).
  destruct (Hcells F HF) as (C1 & C2).
  exists (firstn (Z.to_nat F) (g_hist g)). split; [exact C2|]. split; [exact C1|].
  intros h hist low f Eg Hf. pose proof (proj1 HT) as HG. rewrite gvalL_firstn by lia.
  assert (Hf1 : 0 <= f <= s_last_confirmed (ps_sync p)) by lia. assert (Hf2 : f < s_current (ps_sync p)) by lia.
  exact (proj2 (TI_confirmed_known _ _ _ _ _ _ h hist low f HQS HT Eg Hf1 Hf2)).
Qed.

End Timeline.
