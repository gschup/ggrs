(* C01 — every peer's confirmed timeline equals the serial replay of the true inputs.
   The statements, each derived in a few lines from the theorems of SessionTimeline.v, SessionTimelineSparse.v,
   SessionSystem.v and SystemGlue.v.  Model: coq/P2P.v (session core) with Sync.v and Queue.v, tied to the code by the
   `session` correspondence level; the user's game is the free game of SessionProofs.v, so "the value
   the game last simulated for (frame f, player h)" is read off the game's own input history
   [g_hist], which is exactly what the executed request lists (Load = truncate, Advance = append)
   leave behind (SessionTimeline.exec_hist).

   Space (decided on the state by SessionProgress.op_ok; srun_in = srun that answers Err at the first
   operation outside it): rollback mode (max_prediction >= 1), sparse saving on or off (the theorems
   quantify over the flag), any number of spectators, nobody disconnects; local players with a common input delay d, max_prediction + d + 3 <= INPUT_QUEUE_LENGTH;
   remote players' inputs arrive in frame order while their ring has room (what the endpoint delivers:
   props/C05.v, C11.v); add_local_input / advance_frame / arriving inputs / gossip in ANY interleaving.
   Predictors: any function with predict (predict x) = predict x and predict 0 = 0 - both shipped
   predictors (C01_predictors_qualify); see DESIGN.md for what happens without idempotence. *)
From GGRS Require Import Base Consts Queue QueueProofs Sync P2P Session SessionProofs SessionSparse SessionProgress SessionSparse2 SessionTimeline SessionTimelineSparse SessionSystem SystemGlue.
From GGRS Require Endpoint EndpointEvents.
From Coq Require Import Lia.
Open Scope Z_scope.

(* After ANY run inside the space, however predictions, mispredictions, rollbacks, stalls at the
   prediction threshold and late inputs interleaved: the request lists were executable, and every frame
   f <= last confirmed frame that has been simulated was LAST simulated - for every player h - with the
   input the session holds for (f, h) in that player's input history [hist] (the histories of the
   invariant QS: for a remote player the inputs received, in order; for a local player the delayed
   inputs registered - see C01_held_inputs_step).  The game state after those frames is therefore the serial
   replay of the held inputs, whatever was predicted on the way. *)
Theorem C01_confirmed_frames_use_held_inputs :
  forall (predict : Z -> Z), (forall x, predict (predict x) = predict x) -> predict 0 = 0 ->
  forall (sparse : bool) (ops : list sop) (n w d : Z) (kinds : list pkind) (eps : list (list Z)) (nspec : nat) (p : p2p) (outs : list (pout * apires)),
  1 <= w -> 0 <= d -> w + d + 3 <= INPUT_QUEUE_LENGTH -> 0 < n -> Z.of_nat (length kinds) = n -> players_only kinds ->
  srun_in predict (session_start n w sparse d kinds eps nspec) ops = Ok (p, outs) ->
  exists g gs, exec_outs w (game0 w) outs = Some g /\ QSg sparse w d p gs /\ gframe g = s_current (ps_sync p) /\
    forall h hist low f, nth_error gs h = Some (hist, low) ->
      0 <= f <= s_last_confirmed (ps_sync p) -> f < s_current (ps_sync p) ->
      f < hlen hist /\ gvalL (g_hist g) f h = hval hist f.
Proof.
  intros predict Hi Hz [|].
  - exact (sparse_confirmed_frames_use_held_inputs predict Hi Hz).
  - exact (confirmed_frames_use_held_inputs predict Hi Hz).
Qed.

(* All peers agree, and agree with the truth.  Let [truth h] be the stream of inputs player h really submitted
   (for a local player of some peer: what that peer registered, the input delay included).  What a session
   holds of a player is a prefix of that stream - its own registered inputs for a local player, and for a
   remote player the inputs delivered so far, which the link delivers in order and unaltered (props/C05.v,
   C11.v, C14.v at their levels).  Under exactly that hypothesis, on ANY peer and after ANY run inside the
   space, every simulated frame up to the last confirmed frame carries the true input of every player - hence
   two peers' game states agree on every frame confirmed by both, and equal the serial replay of the truth. *)
Definition held_prefix_of (truth : nat -> list Z) (gs : list ghost) : Prop :=
  forall h hist low, nth_error gs h = Some (hist, low) -> exists rest, truth h = hist ++ rest.

Theorem C01_confirmed_timeline_is_the_truth :
  forall (predict : Z -> Z), (forall x, predict (predict x) = predict x) -> predict 0 = 0 ->
  forall (sparse : bool) (ops : list sop) (n w d : Z) (kinds : list pkind) (eps : list (list Z)) (nspec : nat) (p : p2p) (outs : list (pout * apires)),
  1 <= w -> 0 <= d -> w + d + 3 <= INPUT_QUEUE_LENGTH -> 0 < n -> Z.of_nat (length kinds) = n -> players_only kinds ->
  srun_in predict (session_start n w sparse d kinds eps nspec) ops = Ok (p, outs) ->
  exists g gs, exec_outs w (game0 w) outs = Some g /\ QSg sparse w d p gs /\ gframe g = s_current (ps_sync p) /\
    forall truth, held_prefix_of truth gs ->
      forall h f, (h < length gs)%nat -> 0 <= f <= s_last_confirmed (ps_sync p) -> f < s_current (ps_sync p) ->
        gvalL (g_hist g) f h = hval (truth h) f.
Proof.
  intros predict Hi Hz sparse ops n w d kinds eps nspec p outs Hw Hd Hcap Hn Hlen Hpl H.
  destruct (C01_confirmed_frames_use_held_inputs predict Hi Hz sparse ops n w d kinds eps nspec p outs Hw Hd Hcap Hn Hlen Hpl H)
    as (g & gs & Ex & HQS & Hgf & Hval).
  exists g, gs. split; [exact Ex|]. split; [exact HQS|]. split; [exact Hgf|].
  intros truth Hpre h f Hh Hf Hfc.
  destruct (nth_error gs h) as [[hist low]|] eqn:Eg; [|apply nth_error_None in Eg; lia].
  destruct (Hval h hist low f Eg Hf Hfc) as (Hlt & Hv). destruct (Hpre h hist low Eg) as (rest & ->).
  rewrite Hv. symmetry. apply hval_app_l. lia.
Qed.

Theorem C01_peers_agree :
  forall (predict : Z -> Z), (forall x, predict (predict x) = predict x) -> predict 0 = 0 ->
  forall (truth : nat -> list Z)
         (sparseA sparseB : bool) (opsA opsB : list sop) (n wA wB dA dB : Z) (kindsA kindsB : list pkind)
         (epsA epsB : list (list Z)) (nspecA nspecB : nat) (pA pB : p2p) (outsA outsB : list (pout * apires)),
  1 <= wA -> 0 <= dA -> wA + dA + 3 <= INPUT_QUEUE_LENGTH -> 1 <= wB -> 0 <= dB -> wB + dB + 3 <= INPUT_QUEUE_LENGTH ->
  0 < n -> Z.of_nat (length kindsA) = n -> Z.of_nat (length kindsB) = n -> players_only kindsA -> players_only kindsB ->
  srun_in predict (session_start n wA sparseA dA kindsA epsA nspecA) opsA = Ok (pA, outsA) ->
  srun_in predict (session_start n wB sparseB dB kindsB epsB nspecB) opsB = Ok (pB, outsB) ->
  exists gA gB gsA gsB, exec_outs wA (game0 wA) outsA = Some gA /\ exec_outs wB (game0 wB) outsB = Some gB /\
    QSg sparseA wA dA pA gsA /\ QSg sparseB wB dB pB gsB /\
    (held_prefix_of truth gsA -> held_prefix_of truth gsB ->
     forall h f, (h < length gsA)%nat -> (h < length gsB)%nat ->
       0 <= f <= s_last_confirmed (ps_sync pA) -> f < s_current (ps_sync pA) ->
       0 <= f <= s_last_confirmed (ps_sync pB) -> f < s_current (ps_sync pB) ->
       gvalL (g_hist gA) f h = gvalL (g_hist gB) f h).
Proof.
  intros predict Hi Hz truth sparseA sparseB opsA opsB n wA wB dA dB kindsA kindsB epsA epsB nspecA nspecB pA pB outsA outsB
         HwA HdA HcA HwB HdB HcB Hn HlA HlB HpA HpB HA HB.
  destruct (C01_confirmed_timeline_is_the_truth predict Hi Hz sparseA opsA n wA dA kindsA epsA nspecA pA outsA HwA HdA HcA Hn HlA HpA HA)
    as (gA & gsA & ExA & HQA & _ & HvA).
  destruct (C01_confirmed_timeline_is_the_truth predict Hi Hz sparseB opsB n wB dB kindsB epsB nspecB pB outsB HwB HdB HcB Hn HlB HpB HB)
    as (gB & gsB & ExB & HQB & _ & HvB).
  exists gA, gB, gsA, gsB. split; [exact ExA|]. split; [exact ExB|]. split; [exact HQA|]. split; [exact HQB|].
  intros HtA HtB h f HhA HhB HfA HcA' HfB HcB'.
  rewrite (HvA truth HtA h f HhA HfA HcA'), (HvB truth HtB h f HhB HfB HcB'). reflexivity.
Qed.

(* [mode_ok sparse w d] (SessionSystem.v): rollback mode - 1 <= w, w + d + 3 <= INPUT_QUEUE_LENGTH, either saving
   mode - or lockstep - w = 0, sparse = false, d + 4 <= INPUT_QUEUE_LENGTH.
   What leaves a session and what it does with what arrives (rollback with either saving mode, and lockstep).  After ANY run inside the space:
   every round of inputs handed to the remote players ([all_sends outs]: one entry per send_input call, a map
   handle -> (frame, value)) is a frame f together with, for EVERY local player, exactly the input the session
   holds for (f, that player) - the input its own game simulates frame f with (first conjunct: the input the
   player submitted, shifted by the input delay, the default input before the delay has elapsed:
   C01_held_inputs_step); every input (player, frame, value) that arrived is held as that player's input for that
   frame; and conversely every input held for a remote player arrived with an operation carrying that frame and
   value - nothing is made up, relabelled, or taken from a prediction.  Last conjunct [OB]: between calls nothing
   is left in outgoing_local_inputs, and every frame a local player's queue holds has been handed to the remote
   endpoints (last_sent_outgoing_input_frame + 1 = the number of frames held) - nothing is withheld or stranded. *)
Theorem C01_sent_inputs_are_the_simulated_inputs :
  forall (predict : Z -> Z), (forall x, predict (predict x) = predict x) -> predict 0 = 0 ->
  forall (sparse : bool) (ops : list sop) (n w d : Z) (kinds : list pkind) (eps : list (list Z)) (nspec : nat) (p : p2p) (outs : list (pout * apires)),
  mode_ok sparse w d -> 0 <= d -> 0 < n -> Z.of_nat (length kinds) = n -> players_only kinds ->
  srun_in predict (session_start n w sparse d kinds eps nspec) ops = Ok (p, outs) ->
  exists g gs, exec_outs w (game0 w) outs = Some g /\ QSg sparse w d p gs /\ gframe g = s_current (ps_sync p) /\
    (forall h hist low f, nth_error gs h = Some (hist, low) ->
       0 <= f <= s_last_confirmed (ps_sync p) -> f < s_current (ps_sync p) ->
       f < hlen hist /\ gvalL (g_hist g) f h = hval hist f) /\
    rounds_ok (local_handles p) gs (all_sends outs) /\
    (forall pl f v, In (SRemote pl f v) ops ->
      exists gh, nth_error gs (Z.to_nat pl) = Some gh /\ 0 <= f < hlen (fst gh) /\ hval (fst gh) f = v) /\
    (forall pl e gh f, 0 <= pl -> nth_error kinds (Z.to_nat pl) = Some (KRemote e) ->
      nth_error gs (Z.to_nat pl) = Some gh -> 0 <= f < hlen (fst gh) -> In (SRemote pl f (hval (fst gh) f)) ops) /\
    ps_kinds p = kinds /\ OB p gs /\ Forall (confirmed_ok gs) (all_adv_frames [] outs).
Proof. exact sends_and_receipts_any. Qed.

(* Two peers, no hypothesis about what they hold: A owns player h, B sees h as a remote player; each runs ANY
   operation sequence of the space, with its own window (rollback or lockstep), delay, saving mode and interleaving.  The one assumption
   is the link's integrity contract [delivered_was_sent]: every input of h that arrives at B (an SRemote
   operation: frame and value) was handed to the network by A in some round (loss, duplication, delay and
   reordering of packets are absorbed below this level: the endpoint delivers each frame once, in order -
   props/C05.v; the codec returns what was encoded - props/C14.v).  Then A's game and B's game used the same input
   for h at every frame that both have confirmed and simulated.  With every player owned by somebody, the games
   of all peers agree on every mutually confirmed frame. *)
Theorem C01_two_sessions_agree :
  forall (predict : Z -> Z), (forall x, predict (predict x) = predict x) -> predict 0 = 0 ->
  forall (sparseA sparseB : bool) (opsA opsB : list sop) (n wA wB dA dB : Z) (kindsA kindsB : list pkind)
         (epsA epsB : list (list Z)) (nspecA nspecB : nat) (pA pB : p2p) (outsA outsB : list (pout * apires)),
  mode_ok sparseA wA dA -> 0 <= dA -> mode_ok sparseB wB dB -> 0 <= dB ->
  0 < n -> Z.of_nat (length kindsA) = n -> Z.of_nat (length kindsB) = n -> players_only kindsA -> players_only kindsB ->
  srun_in predict (session_start n wA sparseA dA kindsA epsA nspecA) opsA = Ok (pA, outsA) ->
  srun_in predict (session_start n wB sparseB dB kindsB epsB nspecB) opsB = Ok (pB, outsB) ->
  exists gA gB, exec_outs wA (game0 wA) outsA = Some gA /\ exec_outs wB (game0 wB) outsB = Some gB /\
    forall h e, 0 <= h -> nth_error kindsA (Z.to_nat h) = Some KLocal -> nth_error kindsB (Z.to_nat h) = Some (KRemote e) ->
      delivered_was_sent h outsA opsB ->
      forall f, 0 <= f <= s_last_confirmed (ps_sync pA) -> f < s_current (ps_sync pA) ->
                0 <= f <= s_last_confirmed (ps_sync pB) -> f < s_current (ps_sync pB) ->
        gvalL (g_hist gA) f (Z.to_nat h) = gvalL (g_hist gB) f (Z.to_nat h).
Proof. exact two_sessions_agree. Qed.

(* The link contract from the endpoint theorems (coq/SystemGlue.v).  The session-core model and the endpoint model
   share no datatype; the two identities that join them are hypotheses here, everything between them is proved:
   [sender_fed]: every frame the sending endpoint was handed is a round of A's session serialised by send_input;
   [receiver_reads]: every SRemote operation of B's session is an Input event justified by the stream - which is what
   props/C05.v proves of every event the receiving endpoint hands out (C05_events_were_sent,
   C05_poll_hands_out_what_was_sent); [rounds_shaped]: every round names exactly the receiver's player handles [hs]
   with a real frame number and u32 values.  Then the link's integrity contract holds ... *)
Theorem C01_link_contract_from_endpoints : forall np hs outsA sent opsB h,
  hs <> [] -> sender_fed np outsA sent -> rounds_shaped np hs outsA -> receiver_reads hs sent opsB h ->
  delivered_was_sent h outsA opsB.
Proof. exact link_contract_from_endpoints. Qed.

(* ... and two peers agree, with no hypothesis above the two glue identities *)
Theorem C01_two_peers_agree_through_endpoints :
  forall (np : Z) (hs : list Z) (predict : Z -> Z), (forall x, predict (predict x) = predict x) -> predict 0 = 0 ->
  forall (sparseA sparseB : bool) (opsA opsB : list sop) (wA wB dA dB : Z) (kindsA kindsB : list pkind)
         (epsA epsB : list (list Z)) (nspecA nspecB : nat) (pA pB : p2p) (outsA outsB : list (pout * apires))
         (sent : list Endpoint.ibytes),
  mode_ok sparseA wA dA -> 0 <= dA -> mode_ok sparseB wB dB -> 0 <= dB ->
  0 < np -> Z.of_nat (length kindsA) = np -> Z.of_nat (length kindsB) = np -> players_only kindsA -> players_only kindsB ->
  srun_in predict (session_start np wA sparseA dA kindsA epsA nspecA) opsA = Ok (pA, outsA) ->
  srun_in predict (session_start np wB sparseB dB kindsB epsB nspecB) opsB = Ok (pB, outsB) ->
  hs <> [] -> sender_fed np outsA sent -> rounds_shaped np hs outsA ->
  exists gA gB, exec_outs wA (game0 wA) outsA = Some gA /\ exec_outs wB (game0 wB) outsB = Some gB /\
    forall h e, 0 <= h -> nth_error kindsA (Z.to_nat h) = Some KLocal -> nth_error kindsB (Z.to_nat h) = Some (KRemote e) ->
      receiver_reads hs sent opsB h ->
      forall f, 0 <= f <= s_last_confirmed (ps_sync pA) -> f < s_current (ps_sync pA) ->
                0 <= f <= s_last_confirmed (ps_sync pB) -> f < s_current (ps_sync pB) ->
        gvalL (g_hist gA) f (Z.to_nat h) = gvalL (g_hist gB) f (Z.to_nat h).
Proof.
  intros np hs predict Hi Hz sparseA sparseB opsA opsB wA wB dA dB kindsA kindsB epsA epsB nspecA nspecB pA pB outsA outsB sent
         HmA HdA HmB HdB Hn HlA HlB HpA HpB HA HB Hne HGA HSh.
  destruct (two_sessions_agree predict Hi Hz sparseA sparseB opsA opsB np wA wB dA dB kindsA kindsB epsA epsB nspecA nspecB
              pA pB outsA outsB HmA HdA HmB HdB Hn HlA HlB HpA HpB HA HB) as (gA & gB & ExA & ExB & Hag).
  exists gA, gB. split; [exact ExA|]. split; [exact ExB|].
  intros h e Hh HlocA HremB HGB. apply (Hag h e Hh HlocA HremB).
  exact (link_contract_from_endpoints np hs outsA sent opsB h Hne HGA HSh HGB).
Qed.

(* non-vacuity: peer A (player 0 local, input delay 1) and peer B (player 0 remote); B receives exactly what A's
   rounds carry (B saves sparsely, so its confirmed frame lags: 0 against A's 1); both simulated frames 0 and 1
   with A's delayed inputs 0 (the delay), 5 *)
Definition c01_sysA : list sop := [SLocal 0 5; SAdvance; SRemote 1 0 3; SLocal 0 6; SAdvance; SRemote 1 1 3; SLocal 0 7; SAdvance].
Definition c01_sysB : list sop := [SLocal 1 3; SAdvance; SRemote 0 0 0; SRemote 0 1 5; SLocal 1 3; SAdvance; SRemote 0 2 6; SLocal 1 3; SAdvance].
Example C01_system_demo :
  exists pA outsA gA pB outsB gB,
    srun_in (fun x => x) (session_start 2 3 false 1 [KLocal; KRemote 0] [[1]] 0) c01_sysA = Ok (pA, outsA) /\
    srun_in (fun x => x) (session_start 2 3 true 0 [KRemote 0; KLocal] [[0]] 0) c01_sysB = Ok (pB, outsB) /\
    exec_outs 3 (game0 3) outsA = Some gA /\ exec_outs 3 (game0 3) outsB = Some gB /\
    map (fun m => assoc_get m 0) (all_sends outsA) = [Some (mkpi 0 0); Some (mkpi 1 5); Some (mkpi 2 6); Some (mkpi 3 7)] /\
    s_last_confirmed (ps_sync pA) = 1 /\ s_last_confirmed (ps_sync pB) = 0 /\
    map (fun f => gvalL (g_hist gA) f 0) [0; 1] = [0; 5] /\ map (fun f => gvalL (g_hist gB) f 0) [0; 1] = [0; 5].
Proof.
  eexists. eexists. eexists. eexists. eexists. eexists.
  split; [vm_compute; reflexivity|]. split; [vm_compute; reflexivity|]. split; [vm_compute; reflexivity|]. split; [vm_compute; reflexivity|].
  split; [vm_compute; reflexivity|]. split; [vm_compute; reflexivity|]. split; [vm_compute; reflexivity|]. split; vm_compute; reflexivity.
Qed.

(* non-vacuity of the lockstep half of [mode_ok]: the same owner A, and a LOCKSTEP receiver (window 0) that gets A's
   first two rounds: it simulates frames 0 and 1 with A's inputs 0, 5 - only ever confirmed ones - and stalls at
   frame 2 (third call: nothing of A for frame 2 yet) while still sending its own input for that frame *)
Definition c01_sysL : list sop := [SRemote 0 0 0; SLocal 1 3; SAdvance; SRemote 0 1 5; SLocal 1 3; SAdvance; SLocal 1 3; SAdvance].
Example C01_system_demo_lockstep :
  mode_ok false 0 0 /\
  exists pB outsB gB,
    srun_in (fun x => x) (session_start 2 0 false 0 [KRemote 0; KLocal] [[0]] 0) c01_sysL = Ok (pB, outsB) /\
    exec_outs 0 (game0 0) outsB = Some gB /\ s_current (ps_sync pB) = 2 /\ s_last_confirmed (ps_sync pB) = 1 /\
    map (fun m => assoc_get m 1) (all_sends outsB) = [Some (mkpi 0 3); Some (mkpi 1 3); Some (mkpi 2 3)] /\
    map (fun f => gvalL (g_hist gB) f 0) [0; 1] = [0; 5].
Proof.
  split; [right; split; [reflexivity|split; [reflexivity|vm_compute; intro X; discriminate X]]|].
  eexists. eexists. eexists.
  split; [vm_compute; reflexivity|]. split; [vm_compute; reflexivity|]. split; [vm_compute; reflexivity|].
  split; [vm_compute; reflexivity|]. split; vm_compute; reflexivity.
Qed.

(* Remote players in closed form: every confirmed frame f that has been simulated was LAST simulated,
   for every remote player pl, with the f-th input delivered for pl during the run ([remote_vals pl ops]:
   the values of the SRemote pl operations, in order) - nothing lost, duplicated, reordered, altered,
   or replaced by a prediction that was never corrected. *)
Theorem C01_confirmed_frames_use_delivered_inputs :
  forall (predict : Z -> Z), (forall x, predict (predict x) = predict x) -> predict 0 = 0 ->
  forall (sparse : bool) (ops : list sop) (n w d : Z) (kinds : list pkind) (eps : list (list Z)) (nspec : nat) (p : p2p) (outs : list (pout * apires)),
  1 <= w -> 0 <= d -> w + d + 3 <= INPUT_QUEUE_LENGTH -> 0 < n -> Z.of_nat (length kinds) = n -> players_only kinds ->
  srun_in predict (session_start n w sparse d kinds eps nspec) ops = Ok (p, outs) ->
  exists g, exec_outs w (game0 w) outs = Some g /\ gframe g = s_current (ps_sync p) /\
    forall pl e f, 0 <= pl -> nth_error kinds (Z.to_nat pl) = Some (KRemote e) ->
      0 <= f <= s_last_confirmed (ps_sync p) -> f < s_current (ps_sync p) ->
      f < hlen (remote_vals pl ops) /\ gvalL (g_hist g) f (Z.to_nat pl) = hval (remote_vals pl ops) f.
Proof.
  intros predict Hi Hz [|].
  - exact (sparse_confirmed_frames_use_delivered_inputs predict Hi Hz).
  - exact (confirmed_frames_use_delivered_inputs predict Hi Hz).
Qed.

(* Local players, call by call (JI1 w p g = 1 <= w /\ JI w p g; the invariants QS, JI1, TI hold in every reachable state -
   SessionTimeline.run_timeline_g with JI1 as the cells invariant): an operation inside the space succeeds, re-establishes the invariants
   and changes the held histories exactly as [op_hist] says: add_local_input and gossip change none; an
   arriving remote input is appended to that player's history; advance_frame appends to the history of a
   local player at most that player's pending input - the value of the last add_local_input for it -
   preceded by d blank inputs (the input delay) when it is the player's first input, and touches no
   remote player's history (hist_step).  With C01_confirmed_frames_use_held_inputs: the confirmed
   timeline is the serial replay of the inputs really submitted, shifted by the delay. *)
Theorem C01_held_inputs_step :
  forall (predict : Z -> Z), (forall x, predict (predict x) = predict x) -> predict 0 = 0 ->
  forall (p : p2p) (gs : list ghost) (g : game) (w d : Z) (o : sop),
  QS w d p gs -> JI1 w p g -> TI predict p gs (g_hist g) -> op_ok p o = true ->
  exists s gs' g', sstep predict p o = Ok s /\ QS w d (sr_state s) gs' /\ JI1 w (sr_state s) g' /\
    TI predict (sr_state s) gs' (g_hist g') /\ op_hist d p o gs gs'.
Proof. exact held_inputs_step. Qed.

(* the same step theorem for sparse saving; the cells invariant there is CIs = JS (the cell of
   last_saved_frame holds that frame's state) with SXs (last confirmed <= last_saved <= current, last_saved
   not beyond what is held of any player, no misprediction flagged below it) *)
Theorem C01_held_inputs_step_sparse :
  forall (predict : Z -> Z), (forall x, predict (predict x) = predict x) -> predict 0 = 0 ->
  forall (p : p2p) (gs : list ghost) (g : game) (w d : Z) (o : sop),
  QSg true w d p gs -> CIs w p g -> TI predict p gs (g_hist g) -> op_ok p o = true ->
  exists s gs' g', sstep predict p o = Ok s /\ QSg true w d (sr_state s) gs' /\ CIs w (sr_state s) g' /\
    TI predict (sr_state s) gs' (g_hist g') /\ op_hist d p o gs gs'.
Proof. exact sparse_held_inputs_step. Qed.

(* non-vacuity for sparse saving: the demo run below with sparse saving on *)
Example C01_demo_sparse :
  exists p outs g, srun_in (fun x => x) (session_start 2 2 true 0 [KLocal; KRemote 0] [[1]] 0)
                     [SLocal 0 1; SAdvance; SLocal 0 1; SAdvance; SRemote 1 0 7; SRemote 1 1 7; SLocal 0 2; SAdvance] = Ok (p, outs) /\
    exec_outs 2 (game0 2) outs = Some g /\ s_last_confirmed (ps_sync p) = 1 /\
    map (fun f => (gvalL (g_hist g) f 0, gvalL (g_hist g) f 1)) [0; 1; 2] = [(1, 7); (1, 7); (2, 7)].
Proof. eexists. eexists. eexists. split; [vm_compute; reflexivity|]. split; [vm_compute; reflexivity|]. split; vm_compute; reflexivity. Qed.

(* the two predictors ggrs ships: PredictRepeatLast and PredictDefault (default input = 0 in the model) *)
Example C01_predictors_qualify :
  (forall x : Z, (fun y => y) ((fun y => y) x) = (fun y => y) x) /\ (fun y : Z => y) 0 = 0 /\
  (forall x : Z, (fun _ => 0) ((fun _ : Z => 0) x) = (fun _ : Z => 0) x) /\ (fun _ : Z => 0) 0 = 0.
Proof. repeat split. Qed.

(* non-vacuity: a run inside the space with a misprediction that is rolled back: player 1's inputs
   7, 7 arrive after two frames were simulated with the prediction 0; afterwards frames 0 and 1 carry
   7 for player 1 *)
Definition c01_demo_ops : list sop :=
  [SLocal 0 1; SAdvance; SLocal 0 1; SAdvance; SRemote 1 0 7; SRemote 1 1 7; SLocal 0 2; SAdvance].
Example C01_demo :
  exists p outs g, srun_in (fun x => x) (session_start 2 2 false 0 [KLocal; KRemote 0] [[1]] 0) c01_demo_ops = Ok (p, outs) /\
    exec_outs 2 (game0 2) outs = Some g /\ s_last_confirmed (ps_sync p) = 1 /\
    map (fun f => (gvalL (g_hist g) f 0, gvalL (g_hist g) f 1)) [0; 1; 2] = [(1, 7); (1, 7); (2, 7)].
Proof. eexists. eexists. eexists. split; [vm_compute; reflexivity|]. split; [vm_compute; reflexivity|]. split; vm_compute; reflexivity. Qed.

(* The hypothesis on the predictor cannot be dropped: with the custom predictor x -> (x + 1) mod 6
   (InputPredictor is a public extension point; not one of the two shipped predictors, so outside the
   property's space) the model - and the real code, replayed through the L4 simulation, DESIGN.md 0.3 -
   leaves a CONFIRMED frame simulated with a stale prediction for good: player 1's frames 2,3 are
   predicted 1; its input for frame 1 arrives and matches; a misprediction of player 2 at frame 3 rolls
   back to frame 3 only, and the prediction restarted there is predict(1) = 2; player 1's real input 2
   for frame 2 then matches the NEW prediction, so frame 2 - simulated with 1 - is never flagged. *)
Definition c01_inc (x : Z) : Z := (x + 1) mod 6.
Definition c01_inc_ops : list sop :=
  [SRemote 1 0 0; SRemote 2 0 0;
   SLocal 0 9; SAdvance; SLocal 0 9; SAdvance; SLocal 0 9; SAdvance; SLocal 0 9; SAdvance;
   SRemote 1 1 1; SRemote 2 1 1; SRemote 2 2 1; SRemote 2 3 5;
   SLocal 0 9; SAdvance;
   SRemote 1 2 2; SRemote 1 3 2; SRemote 1 4 2; SRemote 2 4 5;
   SLocal 0 9; SAdvance].
Theorem C01_idempotent_predictor_needed_refuted :
  exists p outs g, srun_in c01_inc (session_start 3 8 false 0 [KLocal; KRemote 0; KRemote 1] [[1]; [2]] 0) c01_inc_ops = Ok (p, outs) /\
    exec_outs 8 (game0 8) outs = Some g /\ s_last_confirmed (ps_sync p) = 4 /\
    gvalL (g_hist g) 2 1 = 1 /\                                  (* what the game last simulated for (frame 2, player 1) *)
    hval (nth 2 (map (fun o => match o with SRemote 1 _ v => v | _ => 0 end)
                     (filter (fun o => match o with SRemote 1 _ _ => true | _ => false end) c01_inc_ops)) 0 :: nil) 0 = 2.  (* its real input *)
Proof. eexists. eexists. eexists. split; [vm_compute; reflexivity|]. split; [vm_compute; reflexivity|]. split; [vm_compute; reflexivity|]. split; vm_compute; reflexivity. Qed.


(* non-vacuity of the glue hypotheses: the rounds of the run c01_sysA (player 0, delay 1), serialised as send_input
   serialises them (4 little-endian bytes per player), and the remote-input operations of c01_sysB *)
Definition c01_glue_outs : list (pout * apires) :=
  match srun_in (fun x => x) (session_start 2 3 false 1 [KLocal; KRemote 0] [[1]] 0) c01_sysA with Ok (_, o) => o | _ => [] end.
Definition c01_glue_sent : list Endpoint.ibytes :=
  [(0, [0; 0; 0; 0]%N); (1, [5; 0; 0; 0]%N); (2, [6; 0; 0; 0]%N); (3, [7; 0; 0; 0]%N)].
Lemma c01_glue_rounds : all_sends c01_glue_outs =
  [[(0, mkpi 0 0)]; [(0, mkpi 1 5)]; [(0, mkpi 2 6)]; [(0, mkpi 3 7)]].
Proof. vm_compute. reflexivity. Qed.
Example C01_glue_demo :
  sender_fed 2 c01_glue_outs c01_glue_sent /\ rounds_shaped 2 [0] c01_glue_outs /\ receiver_reads [0] c01_glue_sent c01_sysB 0.
Proof.
  split; [|split].
  - intros k b Hin. rewrite c01_glue_rounds. unfold c01_glue_sent in Hin. cbn [In] in Hin.
    destruct Hin as [X|[X|[X|[X|[]]]]]; injection X as <- <-.
    + exists [(0, mkpi 0 0)]. split; [left; reflexivity|vm_compute; reflexivity].
    + exists [(0, mkpi 1 5)]. split; [right; left; reflexivity|vm_compute; reflexivity].
    + exists [(0, mkpi 2 6)]. split; [right; right; left; reflexivity|vm_compute; reflexivity].
    + exists [(0, mkpi 3 7)]. split; [right; right; right; left; reflexivity|vm_compute; reflexivity].
  - intros m Hin. rewrite c01_glue_rounds in Hin. cbn [In] in Hin.
    destruct Hin as [<-|[<-|[<-|[<-|[]]]]]; (split; [vm_compute; reflexivity|]);
      (constructor; [|constructor]); cbn [snd pi_frame pi_val]; unfold NULL; lia.
  - intros f v Hin. unfold c01_sysB in Hin. cbn [In] in Hin.
    destruct Hin as [X|[X|[X|[X|[X|[X|[X|[X|[X|[]]]]]]]]]]; try discriminate X; injection X as <- <-;
      cbn [EndpointEvents.ev_justified length].
    + exists [0; 0; 0; 0]%N, [0], O. split; [left; reflexivity|]. split; [vm_compute; reflexivity|]. split; reflexivity.
    + exists [5; 0; 0; 0]%N, [5], O. split; [right; left; reflexivity|]. split; [vm_compute; reflexivity|]. split; reflexivity.
    + exists [6; 0; 0; 0]%N, [6], O. split; [right; right; left; reflexivity|]. split; [vm_compute; reflexivity|]. split; reflexivity.
Qed.
