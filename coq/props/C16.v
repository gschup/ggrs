(* C16 (builder part) — SessionBuilder accepts exactly the configurations its documentation allows and
   rejects every other one at the documented call.
   The builder statements are those of BuilderProofs.v with the generated default player count put in;
   the run-time half at the end is proved here, by unfolding the session calls.
   Model: Builder.v (mirrors src/sessions/builder.rs); reference predicate: BuilderSpec.v (transcribed
   from the documentation, does not use the model functions). *)
From GGRS Require Import Base Consts Builder BuilderSpec BuilderProofs.
From GGRS Require Queue Sync P2P.
Open Scope Z_scope.

(* side condition on the constant generated from builder.rs: the default player count is itself a
   documented-valid one ("Must be at least 1") *)
Lemma default_players_ok : 1 <= DEFAULT_PLAYERS.
Proof. vm_compute. discriminate. Qed.

(* For ALL call lists (any length) with unsigned arguments (no upper bound) and every finisher: the
   model never reaches the assertion behind the finisher, returns a session iff the reference
   predicate holds, returns InvalidRequest iff it does not, and the reported index is that of the first
   call the reference predicate rejects (index `length cs` = the finisher). *)
Theorem C16_builder_spec : forall cs f, Forall usize_call cs ->
  snd (run_calls cs f) <> Panic /\
  ((exists s, snd (run_calls cs f) = Ok s) <-> valid_calls cs f) /\
  ((exists s, snd (run_calls cs f) = Ok s) -> fst (run_calls cs f) = length cs) /\
  (snd (run_calls cs f) = Err <-> ~ valid_calls cs f) /\
  (snd (run_calls cs f) = Err -> first_invalid cs f (fst (run_calls cs f))).
Proof. exact (builder_spec default_players_ok). Qed.

(* "the first rejected call" is unique, so the reported index is determined by the documentation *)
Theorem C16_first_invalid_unique : forall cs f n m,
  first_invalid cs f n -> first_invalid cs f m -> n = m.
Proof. exact first_invalid_unique. Qed.

(* an accepted P2P configuration: exactly one endpoint per distinct registered remote / spectator
   address, carrying exactly the handles registered for it; the session starts Running iff there is
   no endpoint; handles 0..num_players-1 are exactly the local and remote players; spectator handles
   are >= num_players; num_players() (a count of registered players) equals the configured value *)
Theorem C16_p2p_shape : forall cs n p, Forall usize_call cs ->
  run_calls cs FP2P = (n, Ok (SP2P p)) ->
  NoDup (map (fun e => (e_addr e, e_spectator e)) (p_endpoints p)) /\
  (forall a k, (exists e, In e (p_endpoints p) /\ e_addr e = a /\ e_spectator e = k) <->
               (exists h, In (CAddPlayer (peer k a) h) cs)) /\
  (forall e h, In e (p_endpoints p) ->
               (In h (e_handles e) <-> In (CAddPlayer (peer (e_spectator e) (e_addr e)) h) cs)) /\
  (p_running p = true <-> p_endpoints p = []) /\
  p_cfg_num_players p = np_of cs /\ p_num_players p = np_of cs /\ 1 <= np_of cs /\
  (forall h, 0 <= h < np_of cs <-> In h (p_local p) \/ In h (p_remote p)) /\
  (forall h, In h (p_local p) <-> In (CAddPlayer Local h) cs) /\
  (forall h, In h (p_remote p) <-> exists a, In (CAddPlayer (Remote a) h) cs) /\
  (forall h, In h (p_spectators p) <-> exists a, In (CAddPlayer (Spectator a) h) cs) /\
  (forall h, In h (p_spectators p) -> np_of cs <= h) /\
  p_max_prediction p = window_of cs /\ p_input_delay p = delay_of cs /\ p_desync p = desync_of cs /\
  p_sparse p = (if window_of cs =? 0 then false else sparse_of cs).
Proof. exact (p2p_shape default_players_ok). Qed.

Theorem C16_other_sessions_shape : forall cs f n s, Forall usize_call cs ->
  run_calls cs f = (n, Ok s) ->
  match s with
  | SP2P _ => f = FP2P
  | SSpectator np host _ _ => f = FSpectator host /\ np = np_of cs /\ 1 <= np
  | SSyncTest np w cd d => f = FSyncTest /\ np = np_of cs /\ 1 <= np /\ w = window_of cs /\
                           cd = check_dist_of cs /\ d = delay_of cs /\ cd < w
  end.
Proof. exact (other_sessions_shape default_players_ok). Qed.

(* non-vacuity: a valid 2-player configuration with a spectator is accepted (and is valid by the
   reference predicate alone) ... *)
Example C16_valid_example :
  Forall usize_call ex_valid /\ valid_calls ex_valid FP2P /\
  run_calls ex_valid FP2P =
  (5%nat, Ok (SP2P (mkP 2 2 false [mkE 7 [1] false; mkE 9 [2] true] [0] [1] [2] [(7, [1]); (9, [2])]
                        DEFAULT_MAX_PREDICTION_FRAMES false None 2 DEFAULT_FPS))).
Proof. exact (conj ex_valid_usize (conj ex_valid_is_valid ex_valid_runs)). Qed.

(* ... and an invalid one (with_num_players 1 after a remote with handle 1 was added) is rejected at
   that call, index 3, not at the later `with_fps 0` *)
Example C16_invalid_example :
  Forall usize_call ex_invalid /\ first_invalid ex_invalid FP2P 3 /\
  run_calls ex_invalid FP2P = (3%nat, Err).
Proof. exact (conj ex_invalid_usize (conj ex_invalid_first_invalid ex_invalid_runs)). Qed.

(* Run-time misuse (session-core model coq/P2P.v, `session` correspondence level): a call with a wrong
   handle or in the wrong state answers the documented error and leaves the session state exactly as it
   was - nothing is queued, sent, or requested.  For EVERY session state. *)
Theorem C16_misuse_leaves_state_unchanged :
  forall (predict : Z -> Z) (p : P2P.p2p),
  (* input for a handle that is not a local player: InvalidRequest *)
  (forall h v, P2P.kind_at p h <> Some P2P.KLocal -> P2P.api_add_local_input p h v = (p, P2P.AInvalidRequest)) /\
  (* advancing before synchronisation: NotSynchronized *)
  (P2P.ps_running p = false -> P2P.advance predict p = Ok (p, P2P.out0, P2P.ANotSynchronized)) /\
  (* advancing with a local input missing: InvalidRequest *)
  (P2P.ps_running p = true ->
   (exists h, In h (P2P.local_handles p) /\ P2P.assoc_get (P2P.ps_pending p) h = None) ->
   P2P.advance predict p = Ok (p, P2P.out0, P2P.AInvalidRequest)) /\
  (* disconnecting a local, unknown or already disconnected player: InvalidRequest *)
  (forall h, (h < 0 \/ P2P.kind_at p h = None \/ P2P.kind_at p h = Some P2P.KLocal \/
              (exists e, P2P.kind_at p h = Some (P2P.KRemote e) /\ Sync.cs_disc (P2P.stat_at p h) = true)) ->
             P2P.api_disconnect_player p h = Ok (p, P2P.AInvalidRequest)) /\
  (* changing the input delay of a player that is not local: InvalidRequest *)
  (forall h d, (h < 0 \/ P2P.kind_at p h <> Some P2P.KLocal) ->
               P2P.api_set_input_delay p h d = Ok (p, P2P.out0, P2P.AInvalidRequest)).
Proof.
  intros predict p. split; [|split; [|split; [|split]]].
  - intros h v H. unfold P2P.api_add_local_input. destruct (P2P.kind_at p h) as [[| |]|]; try reflexivity. congruence.
  - intros H. unfold P2P.advance. rewrite H. reflexivity.
  - intros H (h & Hin & Hn). unfold P2P.advance. rewrite H. cbn [negb].
    assert (forallb (fun h0 => match P2P.assoc_get (P2P.ps_pending p) h0 with Some _ => true | None => false end) (P2P.local_handles p) = false) as ->.
    { apply Bool.not_true_is_false. intro A. rewrite forallb_forall in A. specialize (A h Hin). rewrite Hn in A. discriminate. }
    reflexivity.
  - intros h H. unfold P2P.api_disconnect_player. destruct (Z.ltb_spec h 0); [reflexivity|].
    destruct H as [H|[H|[H|(e & H & Hd)]]]; [lia|rewrite H; reflexivity|rewrite H; reflexivity|rewrite H, Hd; reflexivity].
  - intros h d H. unfold P2P.api_set_input_delay. destruct (Z.ltb_spec h 0); [reflexivity|].
    destruct H as [H|H]; [lia|]. destruct (P2P.kind_at p h) as [[| |]|]; try reflexivity. congruence.
Qed.

Check C16_builder_spec : forall cs f, Forall usize_call cs ->
  snd (run_calls cs f) <> Panic /\
  ((exists s, snd (run_calls cs f) = Ok s) <-> valid_calls cs f) /\
  ((exists s, snd (run_calls cs f) = Ok s) -> fst (run_calls cs f) = length cs) /\
  (snd (run_calls cs f) = Err <-> ~ valid_calls cs f) /\
  (snd (run_calls cs f) = Err -> first_invalid cs f (fst (run_calls cs f))).
