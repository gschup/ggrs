(* C03 — input status is truthful and confirmed inputs are final (queue level, then session level).
   The statements, each derived in a few lines from the theorems of QueueTheorems.v, SessionTimeline.v,
   SessionTimelineSparse.v and SessionSystem.v. *)
From GGRS Require Import Base Consts Queue QueueProofs QueueTheorems.
From GGRS Require Import Sync P2P Session SessionProofs SessionSparse SessionProgress SessionSparse2 SessionTimeline SessionTimelineSparse SessionSystem.
Open Scope Z_scope.

(* For every sequence of arrivals of a remote player's inputs, reads (non-decreasing between two
   resets, never with a misprediction pending, never below the tail - what the session issues),
   resets and discards: no assert of the queue fires, and every input handed out is truthful:
   Confirmed  => the frame had been received and the value is the real input of that frame;
   Predicted  => the frame lies beyond everything received and the value is the predictor applied to
                 the newest received input (the default input 0 if nothing was received yet).
   Stated for any predictor that is idempotent and maps the default input to itself; instantiated
   for the two shipped predictors. *)
Theorem C03_queue_truthful : forall (predict : Z -> Z),
  (forall x, predict (predict x) = predict x) -> predict 0 = 0 ->
  forall (ops : list rop) (s : rstate),
  rrun predict rs_init ops <> Panic /\
  (rrun predict rs_init ops = Ok s -> Forall (entry_ok predict) (rs_log s)).
Proof. exact remote_queue_truthful. Qed.

Theorem C03_queue_truthful_repeat_last : forall (ops : list rop) (s : rstate),
  rrun (fun x => x) rs_init ops <> Panic /\
  (rrun (fun x => x) rs_init ops = Ok s -> Forall (entry_ok (fun x => x)) (rs_log s)).
Proof. exact (remote_queue_truthful (fun x => x) (fun x => eq_refl) eq_refl). Qed.

Theorem C03_queue_truthful_default : forall (ops : list rop) (s : rstate),
  rrun (fun _ => 0) rs_init ops <> Panic /\
  (rrun (fun _ => 0) rs_init ops = Ok s -> Forall (entry_ok (fun _ => 0)) (rs_log s)).
Proof. exact (remote_queue_truthful (fun _ => 0) (fun x => eq_refl) eq_refl). Qed.

(* non-vacuity: prediction, matching arrivals, a misprediction, rollback (reset) and re-read *)
Definition c03_demo_ops : list rop :=
  [RAdd 4; RInput 0; RInput 1; RInput 2; RAdd 4; RAdd 4; RInput 3; RAdd 9; RReset; RInput 3; RDiscard 1; RInput 4].
Example C03_demo :
  exists s, rrun (fun x => x) rs_init c03_demo_ops = Ok s /\
            map (fun e => let '(f, v, st, _) := e in (f, v, st)) (rs_log s) =
            [(0, 4, Confirmed); (1, 4, Predicted); (2, 4, Predicted); (3, 4, Predicted); (3, 9, Confirmed); (4, 9, Predicted)].
Proof. eexists. split; vm_compute; reflexivity. Qed.


(* ===================================================================================================
   SESSION LEVEL (model coq/P2P.v, tied to the code by the `session` correspondence; space and conventions
   of props/C01.v).  An AdvanceFrame request is read off the request list together with the frame it
   simulates ([adv_frames]: a Load truncates the game's history, an Advance extends it), so the statements
   cover the first simulation of a new frame and every re-simulation alike.

   The invariants (QSg: queues, statuses, frames; the cells invariant of the saving mode; TI: the game's input
   history against the held inputs) hold in every state a run inside the space reaches: *)
Definition CIm (sparse : bool) : Z -> p2p -> game -> Prop := if sparse then CIs else JI1.

Theorem C03_invariants_reachable :
  forall (predict : Z -> Z), (forall x, predict (predict x) = predict x) -> predict 0 = 0 ->
  forall (sparse : bool) (ops : list sop) (n w d : Z) (kinds : list pkind) (eps : list (list Z)) (nspec : nat) (p : p2p) (outs : list (pout * apires)),
  1 <= w -> 0 <= d -> w + d + 3 <= INPUT_QUEUE_LENGTH -> 0 < n -> Z.of_nat (length kinds) = n -> players_only kinds ->
  srun_in predict (session_start n w sparse d kinds eps nspec) ops = Ok (p, outs) ->
  exists g gs, exec_outs w (game0 w) outs = Some g /\ QSg sparse w d p gs /\ CIm sparse w p g /\ TI predict p gs (g_hist g).
Proof.
  intros predict Hi Hz [|].
  - exact (sparse_invariants_reachable predict Hi Hz).
  - exact (invariants_reachable predict Hi Hz).
Qed.

(* ... and in every such state an operation inside the space succeeds, re-establishes them, and EVERY
   AdvanceFrame request it emits is truthful against the inputs the session holds when the call returns
   ([truthful_lt c gs' (f, ins)]: 0 <= f < c = current_frame() after the call, and for every player with held
   inputs hist: Confirmed /\ f < |hist| /\ value = hist[f], or Predicted /\ |hist| <= f /\ value = predict
   (last hist) - the default input 0 if hist is empty).  The held inputs are the real ones: for a remote player
   the inputs delivered, in order; for a local player the delayed inputs registered (props/C01.v). *)
Theorem C03_requests_truthful :
  forall (predict : Z -> Z), (forall x, predict (predict x) = predict x) -> predict 0 = 0 ->
  forall (sparse : bool) (p : p2p) (gs : list ghost) (g : game) (w d : Z) (o : sop),
  QSg sparse w d p gs -> CIm sparse w p g -> TI predict p gs (g_hist g) -> op_ok p o = true ->
  exists s gs' g', sstep predict p o = Ok s /\ QSg sparse w d (sr_state s) gs' /\ CIm sparse w (sr_state s) g' /\
    TI predict (sr_state s) gs' (g_hist g') /\ op_hist d p o gs gs' /\
    Forall (truthful_lt predict (s_current (ps_sync (sr_state s))) gs') (adv_frames (g_hist g) (o_requests (sr_out s))).
Proof.
  intros predict Hi Hz [|].
  - exact (sparse_requests_truthful_step predict Hi Hz).
  - exact (requests_truthful_step predict Hi Hz).
Qed.

(* What a truthful request says, player by player: the status is Confirmed or Predicted (never Disconnected
   inside the space); a frame whose input is held - in particular every frame at or below confirmed_frame(),
   which is the minimum over the players of the last held frame - is handed out as Confirmed with exactly the
   held input, in EVERY simulation of it, so later re-simulations repeat the same values (finality); Predicted
   means the frame lies beyond everything held and carries the predictor's value. *)
Theorem C03_confirmed_inputs_final :
  forall (predict : Z -> Z) (gs : list ghost) (f : Z) (ins : frame_inputs) (h : nat) (hist : list Z) (low v : Z) (st : istatus),
  truthful predict gs (f, ins) -> nth_error gs h = Some (hist, low) -> nth_error ins h = Some (v, st) ->
  (st = Confirmed \/ st = Predicted) /\ (f < hlen hist -> st = Confirmed /\ v = hval hist f) /\
  (st = Predicted -> hlen hist <= f /\ v = predval predict hist).
Proof. exact truthful_held. Qed.

(* Local players' inputs are always Confirmed (and are the registered inputs) *)
Theorem C03_local_players_confirmed :
  forall (predict : Z -> Z) (sparse : bool) (w d : Z) (p : p2p) (gs : list ghost) (f : Z) (ins : frame_inputs) (h : nat) (v : Z) (st : istatus),
  QSg sparse w d p gs -> truthful_lt predict (s_current (ps_sync p)) gs (f, ins) ->
  nth_error (ps_kinds p) h = Some KLocal -> nth_error ins h = Some (v, st) ->
  st = Confirmed /\ exists hist low, nth_error gs h = Some (hist, low) /\ f < hlen hist /\ v = hval hist f.
Proof. exact truthful_local. Qed.

(* confirmed_frame() never decreases *)
Theorem C03_confirmed_frame_monotone :
  forall (predict : Z -> Z), (forall x, predict (predict x) = predict x) -> predict 0 = 0 ->
  forall (sparse : bool) (p : p2p) (gs : list ghost) (g : game) (w d : Z) (o : sop) (s : sres) (cf cf' : Z),
  QSg sparse w d p gs -> CIm sparse w p g -> TI predict p gs (g_hist g) -> op_ok p o = true ->
  sstep predict p o = Ok s -> confirmed_frame p = Ok cf -> confirmed_frame (sr_state s) = Ok cf' -> cf <= cf'.
Proof.
  intros predict Hi Hz [|].
  - exact (sparse_confirmed_frame_monotone predict Hi Hz).
  - exact (confirmed_frame_monotone predict Hi Hz).
Qed.

(* non-vacuity: the run of props/C01.v's demo, every AdvanceFrame request of every call with its frame: the
   last call rolls back to frame 0 and re-simulates frames 0 and 1 with player 1's real inputs (7, Confirmed)
   where the first simulations had (0, Predicted); the new frame 2 predicts 7 *)
Fixpoint adv_all (G : ghist) (outs : list (pout * apires)) : list (list (Z * frame_inputs)) :=
  match outs with
  | [] => []
  | o :: r => adv_frames G (o_requests (fst o)) :: adv_all (replay_hist G (o_requests (fst o))) r
  end.
Example C03_session_demo :
  exists p outs, srun_in (fun x => x) (session_start 2 2 false 0 [KLocal; KRemote 0] [[1]] 0)
      [SLocal 0 1; SAdvance; SLocal 0 1; SAdvance; SRemote 1 0 7; SRemote 1 1 7; SLocal 0 2; SAdvance] = Ok (p, outs) /\
    adv_all [] outs =
      [[]; [(0, [(1, Confirmed); (0, Predicted)])]; []; [(1, [(1, Confirmed); (0, Predicted)])]; []; []; [];
       [(0, [(1, Confirmed); (7, Confirmed)]); (1, [(1, Confirmed); (7, Confirmed)]); (2, [(2, Confirmed); (7, Predicted)])]].
Proof. eexists. eexists. split; vm_compute; reflexivity. Qed.

(* RUN LEVEL AND ACROSS THE LINK (coq/SessionTimeline.v run_sends_g, coq/SessionSystem.v).
   (a) After ANY run inside the space (rollback with either saving mode, or lockstep: [mode_ok]) EVERY AdvanceFrame
   request the run ever issued ([all_adv_frames]: first simulations and re-simulations, each with the frame it
   simulates) that hands out (v, Confirmed) for a player does so with the input the session holds for that frame
   and player at the end of the run - a Confirmed input is never revised: what is held only grows. *)
Theorem C03_confirmed_inputs_of_a_run :
  forall (predict : Z -> Z), (forall x, predict (predict x) = predict x) -> predict 0 = 0 ->
  forall (sparse : bool) (ops : list sop) (n w d : Z) (kinds : list pkind) (eps : list (list Z)) (nspec : nat) (p : p2p) (outs : list (pout * apires)),
  mode_ok sparse w d -> 0 <= d -> 0 < n -> Z.of_nat (length kinds) = n -> players_only kinds ->
  srun_in predict (session_start n w sparse d kinds eps nspec) ops = Ok (p, outs) ->
  exists gs, QSg sparse w d p gs /\ Forall (confirmed_ok gs) (all_adv_frames [] outs).
Proof.
  intros predict Hi Hz sparse ops n w d kinds eps nspec p outs Hm Hd Hn Hl Hp H.
  destruct (sends_and_receipts_any predict Hi Hz sparse ops n w d kinds eps nspec p outs Hm Hd Hn Hl Hp H)
    as (g & gs & _ & HQS & _ & _ & _ & _ & _ & _ & _ & Hc).
  exists gs. split; assumption.
Qed.

(* (b) "An input handed out as Confirmed is the real input of that player for that frame": two peers, A owns player
   h, B sees h as a remote player; under the link's integrity contract (props/C01.v, C05.v) every input B EVER hands
   out as Confirmed for h at frame f is the input A holds for (f, h): what h's owner registered for that frame (the
   input submitted, shifted by A's input delay). *)
Theorem C03_confirmed_is_the_owners_input :
  forall (predict : Z -> Z), (forall x, predict (predict x) = predict x) -> predict 0 = 0 ->
  forall (sparseA sparseB : bool) (opsA opsB : list sop) (n wA wB dA dB : Z) (kindsA kindsB : list pkind)
         (epsA epsB : list (list Z)) (nspecA nspecB : nat) (pA pB : p2p) (outsA outsB : list (pout * apires)),
  mode_ok sparseA wA dA -> 0 <= dA -> mode_ok sparseB wB dB -> 0 <= dB ->
  0 < n -> Z.of_nat (length kindsA) = n -> Z.of_nat (length kindsB) = n -> players_only kindsA -> players_only kindsB ->
  srun_in predict (session_start n wA sparseA dA kindsA epsA nspecA) opsA = Ok (pA, outsA) ->
  srun_in predict (session_start n wB sparseB dB kindsB epsB nspecB) opsB = Ok (pB, outsB) ->
  exists gsA, QSg sparseA wA dA pA gsA /\
    forall h e, 0 <= h -> nth_error kindsA (Z.to_nat h) = Some KLocal -> nth_error kindsB (Z.to_nat h) = Some (KRemote e) ->
      delivered_was_sent h outsA opsB ->
      forall f ins v, In (f, ins) (all_adv_frames [] outsB) -> nth_error ins (Z.to_nat h) = Some (v, Confirmed) ->
        exists histA lowA, nth_error gsA (Z.to_nat h) = Some (histA, lowA) /\ 0 <= f < hlen histA /\ v = hval histA f.
Proof.
  intros predict Hi Hz sparseA sparseB opsA opsB n wA wB dA dB kindsA kindsB epsA epsB nspecA nspecB pA pB outsA outsB
         HmA HdA HmB HdB Hn HlA HlB HpA HpB HA HB.
  destruct (sends_and_receipts_any predict Hi Hz sparseA opsA n wA dA kindsA epsA nspecA pA outsA HmA HdA Hn HlA HpA HA)
    as (gA & gsA & _ & HQA & _ & _ & HroundsA & _ & _ & HkA & _ & _).
  destruct (sends_and_receipts_any predict Hi Hz sparseB opsB n wB dB kindsB epsB nspecB pB outsB HmB HdB Hn HlB HpB HB)
    as (gB & gsB & _ & _ & _ & _ & _ & _ & HcvB & _ & _ & HcokB).
  exists gsA. split; [exact HQA|].
  intros h e Hh HlocA HremB Hlink f ins v Hin Hc.
  (* B holds the input it handed out as Confirmed; what it holds arrived with an operation; what arrived is what A holds *)
  rewrite Forall_forall in HcokB. destruct (HcokB _ Hin (Z.to_nat h) v Hc) as ([histB lowB] & EgB & HfB & HvB).
  cbn [fst snd] in HfB, HvB.
  pose proof (HcvB h e (histB, lowB) f Hh HremB EgB HfB) as Harr. cbn [fst] in Harr. rewrite HvB in Harr.
  rewrite <- HkA in HlocA.
  destruct (arrived_is_held _ _ _ _ _ _ _ _ _ _ HQA HroundsA Hh HlocA Hlink Harr) as (histA & lowA & EgA & HltA & Hv).
  exists histA, lowA. split; [exact EgA|]. split; [split; [exact (proj1 HfB)|exact HltA]|exact Hv].
Qed.
