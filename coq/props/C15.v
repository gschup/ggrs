(* C15 (time-sync part) — frames_ahead() = TimeSync::average_frame_advantage settles at +k / -k for a
   steady lead k, the two peers' values sum to within one frame of zero; the remote-frame estimate
   that feeds the windows (UdpProtocol::update_local_frame_advantage) and the i16 clamp of the
   quality report.  Floating point is IEEE binary32 (Flocq), bit-exact.
   The statements of C15, each derived from the lemmas of TimeSyncProofs.v; the examples are evaluated. *)
From Coq Require Import ZArith List Bool.
From GGRS Require Import Base Consts TimeSync TimeSyncProofs.
From GGRS Require Import LiaSetup.
Open Scope Z_scope.

(* The result depends on the windows only through their two sums (no i32 overflow while summing:
   |entries| <= B with FRAME_WINDOW_SIZE * B <= i32::MAX), in either build profile. *)
Theorem C15_avg_of_sums : forall dbg B ts,
  ts_wf ts ->
  0 <= B -> FRAME_WINDOW_SIZE * B <= TS_I32_MAX ->
  Forall (fun x => - B <= x <= B) (ts_local ts) ->
  Forall (fun x => - B <= x <= B) (ts_remote ts) ->
  ts_average_frame_advantage dbg ts =
    Ok (ts_avg_of_sums (ts_zsum (ts_local ts)) (ts_zsum (ts_remote ts))).
Proof. exact ts_average_of_sums. Qed.

(* Sum level: peer A holds (local sum sl, remote sum sr), peer B the mirrored pair.  Every intermediate
   value of the binary32 computation lies between two integers that binary32 represents exactly, where
   rounding keeps it; rounding to nearest is odd, so b = -a.  The bound on k is that of the window
   theorems below: [ts_steady_sums] has every k with FRAME_WINDOW_SIZE * (|k| + 1) < 2^23. *)
Theorem C15_avg_steady_sums : forall k sl sr,
  -7 <= k <= 7 ->
  FRAME_WINDOW_SIZE * (- k - 1) <= sl <= FRAME_WINDOW_SIZE * (- k + 1) ->
  FRAME_WINDOW_SIZE * (k - 1) <= sr <= FRAME_WINDOW_SIZE * (k + 1) ->
  ts_steady_ok k (ts_avg_of_sums sl sr) (ts_avg_of_sums sr sl) = true.
Proof. intros k sl sr Hk. apply ts_steady_sums, ts_lead_small, Hk. Qed.

(* Window level: all FRAME_WINDOW_SIZE local entries within one frame of -k, all remote entries within
   one frame of +k  =>  a = frames_ahead of this peer is within 1 of k, b = frames_ahead of the peer
   holding the mirrored windows is within 1 of -k, and a + b is within 1 of 0.  No panic. *)
Theorem C15_avg_steady : forall dbg k ts,
  -7 <= k <= 7 ->
  ts_wf ts ->
  Forall (fun x => - k - 1 <= x <= - k + 1) (ts_local ts) ->
  Forall (fun x => k - 1 <= x <= k + 1) (ts_remote ts) ->
  exists a b,
    ts_average_frame_advantage dbg ts = Ok a /\
    ts_average_frame_advantage dbg (ts_mirror ts) = Ok b /\
    k - 1 <= a <= k + 1 /\ - k - 1 <= b <= - k + 1 /\ -1 <= a + b <= 1.
Proof. intros dbg k ts Hk. apply ts_avg_steady, ts_lead_small, Hk. Qed.

(* History level: from ANY well-formed window contents, once advance_frame has been called for at
   least FRAME_WINDOW_SIZE consecutive frames f, f+1, .. with advantages inside the bands, the same holds
   (every slot has been overwritten: index = frame as usize % FRAME_WINDOW_SIZE). *)
Theorem C15_avg_settles : forall dbg k ts0 f ws,
  -7 <= k <= 7 ->
  ts_wf ts0 ->
  0 <= f -> f + Z.of_nat (length ws) <= 2147483648 ->
  FRAME_WINDOW_SIZE <= Z.of_nat (length ws) ->
  Forall (fun w => (- k - 1 <= fst w <= - k + 1) /\ (k - 1 <= snd w <= k + 1)) ws ->
  exists ts a b,
    ts_run ts0 f ws = Ok ts /\ ts_wf ts /\
    ts_average_frame_advantage dbg ts = Ok a /\
    ts_average_frame_advantage dbg (ts_mirror ts) = Ok b /\
    k - 1 <= a <= k + 1 /\ - k - 1 <= b <= - k + 1 /\ -1 <= a + b <= 1.
Proof.
  intros dbg k ts0 f ws Hk Hwf Hf Hmax. apply ts_avg_settles; [apply ts_lead_small, Hk|assumption..|lia].
Qed.

(* the states the code can reach are well formed, and advance_frame never panics on them *)
Theorem C15_wf_reachable :
  ts_wf ts_new /\
  forall ts f l r, ts_wf ts -> exists ts', ts_advance_frame ts f l r = Ok ts' /\ ts_wf ts'.
Proof. exact (conj ts_new_wf ts_advance_frame_wf). Qed.

(* the binary32 computation is NOT the exact rational one (why the model carries floats) *)
Theorem C15_avg_not_exact :
  ts_avg_of_sums (-116) (-56) = 0 /\ Z.quot (-56 - -116) (2 * FRAME_WINDOW_SIZE) = 1.
Proof. split; vm_compute; reflexivity. Qed.

(* one-way latency L in 0..=100 ms (rtt = 2L, or 2L+1 across a clock tick), fps in 1..=1000, frames
   up to 2^30: remote_frame = last_recv_frame + floor(L * fps / 1000); no panic in either profile *)
Theorem C15_estimate : forall dbg L e fps lr lf cur,
  0 <= L <= 100 -> 0 <= e <= 1 -> 1 <= fps <= 1000 ->
  0 <= lr <= 1073741824 -> 0 <= lf <= 1073741824 ->
  ts_update_local_frame_advantage dbg (2 * L + e) fps lr lf cur =
    Ok (lr + L * fps / 1000 - lf).
Proof. exact ts_estimate_latency. Qed.

(* nothing is recorded before both frames exist *)
Theorem C15_estimate_null : forall dbg rtt fps lr lf cur,
  lf = NULL \/ lr = NULL -> ts_update_local_frame_advantage dbg rtt fps lr lf cur = Ok cur.
Proof.
  intros dbg rtt fps lr lf cur H. unfold ts_update_local_frame_advantage.
  replace ((lf =? NULL) || (lr =? NULL)) with true by lia. reflexivity.
Qed.

(* closed form and monotonicity in the measured round trip wherever the i32 operations stay in range *)
Theorem C15_estimate_value : forall dbg rtt fps lr lf cur,
  0 <= rtt -> 0 <= fps <= TS_I32_MAX ->
  0 <= lr <= TS_I32_MAX -> 0 <= lf <= TS_I32_MAX ->
  ts_ping rtt * fps <= TS_I32_MAX ->
  lr + ts_ping rtt * fps / 1000 <= TS_I32_MAX ->
  ts_update_local_frame_advantage dbg rtt fps lr lf cur =
    Ok (lr + ts_ping rtt * fps / 1000 - lf).
Proof. exact ts_estimate_value. Qed.

Theorem C15_estimate_mono : forall dbg r1 r2 fps lr lf cur a1 a2,
  0 <= r1 <= r2 -> 0 <= fps <= TS_I32_MAX ->
  0 <= lr <= TS_I32_MAX -> 0 <= lf <= TS_I32_MAX ->
  ts_ping r2 * fps <= TS_I32_MAX ->
  lr + ts_ping r2 * fps / 1000 <= TS_I32_MAX ->
  ts_update_local_frame_advantage dbg r1 fps lr lf cur = Ok a1 ->
  ts_update_local_frame_advantage dbg r2 fps lr lf cur = Ok a2 ->
  a1 <= a2.
Proof.
  intros dbg r1 r2 fps lr lf cur a1 a2 Hr Hfps Hlr Hlf Hmul Hadd H1 H2.
  pose proof (ts_ping_mono r1 r2 Hr) as Hpm.
  pose proof (ts_ping_range r1 ltac:(lia)) as Hp1.
  assert (Hle : ts_ping r1 * fps <= ts_ping r2 * fps) by (apply Z.mul_le_mono_nonneg_r; lia).
  assert (Hd : ts_ping r1 * fps / 1000 <= ts_ping r2 * fps / 1000) by (apply Z.div_le_mono; lia).
  rewrite ts_estimate_value in H1, H2 by lia. inversion H1; inversion H2; subst. lia.
Qed.

(* the estimate lands in the band the window theorem assumes: B is at frame b, the newest frame
   received from it left one latency ago (give or take one frame), this peer is k frames ahead *)
Theorem C15_estimate_band : forall dbg L e fps b k lr cur,
  0 <= L <= 100 -> 0 <= e <= 1 -> 1 <= fps <= 1000 ->
  -7 <= k <= 7 -> 0 <= b + k <= 1073741824 -> 0 <= lr <= 1073741824 ->
  b - L * fps / 1000 - 1 <= lr <= b - L * fps / 1000 + 1 ->
  exists adv,
    ts_update_local_frame_advantage dbg (2 * L + e) fps lr (b + k) cur = Ok adv /\
    - k - 1 <= adv <= - k + 1.
Proof. intros dbg L e fps b k lr cur HL He Hfps _. exact (ts_estimate_steady_band dbg L e fps b k lr cur HL He Hfps). Qed.

(* ping: half the round trip, saturated at i32::MAX; rtt = now - pong, saturated at 0 *)
Theorem C15_ping : forall rtt, 0 <= rtt ->
  0 <= ts_ping rtt <= TS_I32_MAX /\ (rtt / 2 <= TS_I32_MAX -> ts_ping rtt = rtt / 2).
Proof. exact (fun rtt H => conj (ts_ping_range rtt H) (ts_ping_half rtt H)). Qed.

Theorem C15_rtt : forall sent d, 0 <= d -> ts_round_trip_time (sent + d) sent = d.
Proof. intros sent d H. unfold ts_round_trip_time. lia. Qed.

(* send_quality_report: the `expect` after the clamp can never fire; values in i16 range pass unchanged *)
Theorem C15_report_clamp : forall adv,
  ts_report_frame_advantage adv = Ok (ts_clamp_i16 adv) /\
  TS_I16_MIN <= ts_clamp_i16 adv <= TS_I16_MAX /\
  (TS_I16_MIN <= adv <= TS_I16_MAX -> ts_clamp_i16 adv = adv).
Proof.
  exact (fun adv => conj (ts_report_total adv) (conj (ts_clamp_i16_range adv) (ts_clamp_i16_id adv))).
Qed.

(* outside the C15 range the i32 product ping * fps can overflow: a round trip of 2*10^8 ms at 60 fps
   panics with overflow checks and yields a wrapped estimate without (reachable through a
   QualityReply whose pong is not the echo of a recent ping) *)
Theorem C15_estimate_overflow_witness :
  ts_update_local_frame_advantage true 200000000 60 0 0 0 = Panic /\
  ts_update_local_frame_advantage false 200000000 60 0 0 0 = Ok 1705032.
Proof. split; vm_compute; reflexivity. Qed.

(* The recommendation gate (P2PSession::check_wait_recommendation), for EVERY sequence of calls (any
   frames, any frames_ahead values, no monotonicity assumed), from any gate state: *)

(* a WaitRecommendation is raised only while frames_ahead >= MIN_RECOMMENDATION (= 3) and carries
   exactly that value *)
Theorem C15_gate_value : forall calls next cf fa k,
  In (cf, fa, Some k) (gate_run next calls) -> next < cf /\ k = fa /\ MIN_RECOMMENDATION <= fa.
Proof. exact gate_run_above. Qed.

(* gate_run ends its trace at the first call that panics: a trace as long as the calls says that none
   does, so the u32 conversion in front of the event never fails *)
Theorem C15_gate_total : forall calls next, length (gate_run next calls) = length calls.
Proof. exact gate_run_length. Qed.

(* two recommendations of one run are more than RECOMMENDATION_INTERVAL (= 60) frames apart *)
Theorem C15_gate_spacing : forall calls next pre cf1 fa1 k1 post cf2 fa2 k2,
  gate_run next calls = pre ++ (cf1, fa1, Some k1) :: post ->
  In (cf2, fa2, Some k2) post ->
  cf1 + RECOMMENDATION_INTERVAL < cf2.
Proof.
  intros calls next pre cf1 fa1 k1 post cf2 fa2 k2 H HIn.
  destruct (gate_run_split _ _ _ _ _ _ _ H) as (n' & rest & Hp & Hn). subst post.
  rewrite <- (Hn k1 eq_refl). exact (proj1 (gate_run_above _ _ _ _ _ HIn)).
Qed.

(* the call after a recommendation raises the next one exactly when it is more than the interval later and
   the lead is still there: the cadence under a lasting lead is one recommendation per 61 frames *)
Theorem C15_gate_next_call : forall calls next pre cf1 fa1 k1 cf fa o post,
  gate_run next calls = pre ++ (cf1, fa1, Some k1) :: (cf, fa, o) :: post ->
  (o = Some fa /\ cf1 + RECOMMENDATION_INTERVAL < cf /\ MIN_RECOMMENDATION <= fa) \/
  (o = None /\ ~ (cf1 + RECOMMENDATION_INTERVAL < cf /\ MIN_RECOMMENDATION <= fa)).
Proof.
  intros calls next pre cf1 fa1 k1 cf fa o post H.
  destruct (gate_run_split _ _ _ _ _ _ _ H) as (n' & rest & Hp & Hn).
  rewrite (Hn k1 eq_refl) in Hp. destruct rest as [|[c f] r]; [discriminate|].
  rewrite gate_run_cons in Hp.
  destruct ((cf1 + RECOMMENDATION_INTERVAL <? c) && (MIN_RECOMMENDATION <=? f)) eqn:Hc;
    inversion Hp; subst; [left|right]; (split; [reflexivity|lia]).
Qed.

(* cadence under a lasting lead (n calls at consecutive frames c, c+1, ... with frames_ahead = fa >= 3, from a gate
   state that a run with non-decreasing frames can be in: next < c + 60): a call raises a recommendation exactly
   when its frame is a multiple of RECOMMENDATION_INTERVAL + 1 = 61 frames past the first frame above the gate
   state - one recommendation per 61 frames, never fewer *)
Theorem C15_gate_steady_cadence : forall n next c fa cf o,
  MIN_RECOMMENDATION <= fa -> next < c + RECOMMENDATION_INTERVAL ->
  In (cf, fa, o) (gate_run next (gate_steady c n fa)) ->
  (o = Some fa /\ (cf - Z.max (next + 1) c) mod (RECOMMENDATION_INTERVAL + 1) = 0) \/
  (o = None /\ (cf - Z.max (next + 1) c) mod (RECOMMENDATION_INTERVAL + 1) <> 0).
Proof. exact gate_steady_cadence. Qed.

(* and none is withheld *)
Theorem C15_gate_emits : forall next cf fa, next < cf -> MIN_RECOMMENDATION <= fa ->
  gate_step next cf fa = Ok (cf + RECOMMENDATION_INTERVAL, Some fa).
Proof.
  intros next cf fa H1 H2. rewrite gate_step_eq.
  replace ((next <? cf) && (MIN_RECOMMENDATION <=? fa)) with true by lia. reflexivity.
Qed.

Theorem C15_gate_consts : MIN_RECOMMENDATION = 3 /\ RECOMMENDATION_INTERVAL = 60.
Proof. split; vm_compute; reflexivity. Qed.

(* a steady lead of 5 with jitter: hypotheses of C15_avg_steady are satisfiable, result computed *)
Example C15_ex_steady :
  ts_wf ts_ex_steady /\
  Forall (fun x => - 5 - 1 <= x <= - 5 + 1) (ts_local ts_ex_steady) /\
  Forall (fun x => 5 - 1 <= x <= 5 + 1) (ts_remote ts_ex_steady) /\
  ts_average_frame_advantage true ts_ex_steady = Ok 5 /\
  ts_average_frame_advantage true (ts_mirror ts_ex_steady) = Ok (-5).
Proof.
  split; [split; vm_compute; reflexivity|].
  split; [repeat (apply Forall_app; split); apply Forall_repeat; lia|].
  split; [apply Forall_app; split; apply Forall_repeat; lia|].
  split; vm_compute; reflexivity.
Qed.

(* a history (k = -3): 40 frames from frame 7 on stale windows; hypotheses of C15_avg_settles hold *)
Example C15_ex_settles :
  ts_wf ts_ex_stale /\ FRAME_WINDOW_SIZE <= Z.of_nat (length ts_ex_writes) /\
  Forall (fun w => (- -3 - 1 <= fst w <= - -3 + 1) /\ (-3 - 1 <= snd w <= -3 + 1)) ts_ex_writes /\
  match ts_run ts_ex_stale 7 ts_ex_writes with
  | Ok ts => ts_average_frame_advantage true ts
  | _ => Err
  end = Ok (-3).
Proof.
  split; [split; vm_compute; reflexivity|].
  split; [vm_compute; discriminate|].
  split; [apply Forall_app; split; apply Forall_repeat; cbn [fst snd]; lia|].
  vm_compute; reflexivity.
Qed.

(* the unit tests of time_sync.rs, and frame -1 (NULL) indexing slot (2^64 - 1) mod 30 = 15 *)
Example C15_ex_unit_tests :
  ts_average_frame_advantage true {| ts_local := repeat 5 30; ts_remote := repeat (-5) 30 |} = Ok (-5) /\
  ts_average_frame_advantage true {| ts_local := repeat (-30) 10 ++ repeat 0 20;
                                     ts_remote := repeat 30 10 ++ repeat 0 20 |} = Ok 10 /\
  ts_average_frame_advantage true {| ts_local := repeat 2 30; ts_remote := repeat 6 30 |} = Ok 2 /\
  ts_index (-1) 30 = 15.
Proof. vm_compute. repeat split. Qed.

(* the estimate at 60 fps and 50 ms one-way latency: three frames in flight *)
Example C15_ex_estimate :
  ts_update_local_frame_advantage true 100 60 200 205 0 = Ok (-2) /\
  ts_update_local_frame_advantage true 101 60 200 205 0 = Ok (-2) /\
  ts_update_local_frame_advantage true 100 60 NULL 205 7 = Ok 7 /\
  ts_report_frame_advantage 40000 = Ok 32767 /\ ts_report_frame_advantage (-2) = Ok (-2).
Proof. vm_compute. repeat split. Qed.

(* overflow while summing is a panic with overflow checks and wraps without *)
Example C15_ex_sum_overflow :
  ts_average_frame_advantage true {| ts_local := repeat 2147483647 30; ts_remote := repeat 0 30 |} = Panic /\
  exists a, ts_average_frame_advantage false {| ts_local := repeat 2147483647 30; ts_remote := repeat 0 30 |} = Ok a.
Proof. vm_compute. exact (conj eq_refl (ex_intro _ _ eq_refl)). Qed.

(* a run through the gate: a lead that comes and goes; three recommendations at frames 2, 63, 124 *)
Example C15_ex_gate : gate_run gate_init gate_ex_calls =
  [(1, 0, None); (2, 3, Some 3); (3, 5, None); (40, 7, None); (62, 2, None); (63, 4, Some 4);
   (64, 4, None); (123, 2, None); (124, 9, Some 9)].
Proof. vm_compute. reflexivity. Qed.

Example C15_ex_gate_steady :
  map (fun e => fst (fst e)) (filter (fun e => match snd e with Some _ => true | None => false end)
    (gate_run gate_init (gate_steady 1 200 4))) = [1; 62; 123; 184].
Proof. vm_compute. reflexivity. Qed.

Check C15_avg_steady : forall dbg k ts,
  -7 <= k <= 7 ->
  ts_wf ts ->
  Forall (fun x => - k - 1 <= x <= - k + 1) (ts_local ts) ->
  Forall (fun x => k - 1 <= x <= k + 1) (ts_remote ts) ->
  exists a b,
    ts_average_frame_advantage dbg ts = Ok a /\
    ts_average_frame_advantage dbg (ts_mirror ts) = Ok b /\
    k - 1 <= a <= k + 1 /\ - k - 1 <= b <= - k + 1 /\ -1 <= a + b <= 1.
Check C15_estimate : forall dbg L e fps lr lf cur,
  0 <= L <= 100 -> 0 <= e <= 1 -> 1 <= fps <= 1000 ->
  0 <= lr <= 1073741824 -> 0 <= lf <= 1073741824 ->
  ts_update_local_frame_advantage dbg (2 * L + e) fps lr lf cur =
    Ok (lr + L * fps / 1000 - lf).
Check C15_gate_spacing : forall calls next pre cf1 fa1 k1 post cf2 fa2 k2,
  gate_run next calls = pre ++ (cf1, fa1, Some k1) :: post ->
  In (cf2, fa2, Some k2) post ->
  cf1 + RECOMMENDATION_INTERVAL < cf2.
Check C15_gate_value : forall calls next cf fa k,
  In (cf, fa, Some k) (gate_run next calls) -> next < cf /\ k = fa /\ MIN_RECOMMENDATION <= fa.
