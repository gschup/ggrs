(* C13 — SyncTestSession flags exactly the games that are not deterministic.
   The statements of C13, each derived in a few lines from the theorems of SyncTestProofs.v (the
   examples by evaluation).
   Model: SyncTest.v (src/sessions/sync_test_session.rs on top of Sync.v / Queue.v).
   Reference semantics: SyncTestSpec.v — the game's state is the list of input vectors played on the
   current timeline, `st_exec` is the executable request contract (C02), `st_run` one user loop:
   add_local_input for every player, advance_frame, execute the requests (RunOk = no call panicked,
   mismatched or was refused, every request list was executable and moved the game by exactly one
   frame to current_frame). *)
From GGRS Require Import Base Consts Queue Sync SyncTest SyncTestSpec SyncTestProofs Builder BuilderSpec.
Open Scope Z_scope.

Lemma default_players_ok : 1 <= DEFAULT_PLAYERS.
Proof. vm_compute. discriminate. Qed.

(* (a) For EVERY player count >= 1, check distance < prediction window, input delay >= 0 with
   delay + check_distance + 2 <= INPUT_QUEUE_LENGTH, every predictor, every input sequence (any
   length, one vector of num_players values per frame) and every DETERMINISTIC game (checksum oracle
   that depends on the game state only): the run completes; the request list of the call made at
   frame c is exactly `st_expected_requests .. c` — [Load c-d, Advance, (Save, Advance)*] when
   0 < d < c, then Save c (when d > 0) and Advance — where every Advance of frame f carries, for
   player p, the value submitted at user frame f - delay (0 before) with status Confirmed; no
   MismatchedChecksum, no panic, no InvalidRequest; the game ends at frame = number of calls on the
   expected timeline, and every simulation step ever executed (first or repeated) used the expected
   inputs of its frame. *)
Theorem C13_no_false_alarm : forall predict ck np w d k ins,
  1 <= np -> 0 <= d < w -> 0 <= k -> k + d + 2 <= INPUT_QUEUE_LENGTH ->
  st_deterministic ck ->
  Forall (fun vs => Z.of_nat (length vs) = np) ins ->
  exists s0 s g,
    st_new np w d k = Ok s0 /\
    st_run predict ck s0 (st_game0 w) ins =
      RunOk s g (map (st_expected_requests np d k ins) (st_zrange 0 (length ins))) /\
    s_current (st_sync s) = Z.of_nat (length ins) /\
    sg_tl g = map (st_expected np ins k) (st_zrange 0 (length ins)) /\
    Forall (fun e => snd e = st_expected np ins k (fst e)) (sg_log g).
Proof.
  intros predict ck np w d k ins Hnp Hd Hk Hcap Hdet Hins.
  (* a deterministic game is one that is noisy at frame -1, which no timeline has: a blind spot *)
  pose proof (st_badn_blind ck np d k ins (-1) (st_deterministic_noisy ck Hdet) ltac:(right; lia)) as Hclean.
  destruct (st_run_clean predict ck np w d k ins ltac:(lia) Hd Hk Hcap Hins Hclean) as (s & g & H).
  exists (st_s0 np w d k), s, g. split; [apply st_new_ok|exact H].
Qed.

(* (b) A game that is deterministic except that the saves of one frame F >= 2 never repeat a checksum,
   check distance >= 2: the calls made at frames 0 .. max(F,d)+1 succeed (with the same request lists
   as above) and the call made at current_frame = max(F, check_distance) + 2 returns
   MismatchedChecksum { current_frame, mismatched_frames = [F] }.  This is the exact frame; it is
   <= F + check_distance (hence within the "check_distance + 2 frames" of the property text). *)
Theorem C13_detection : forall predict ck np w d k ins F,
  1 <= np -> 2 <= d < w -> 0 <= k -> k + d + 2 <= INPUT_QUEUE_LENGTH -> 2 <= F ->
  st_noisy_at ck F ->
  Forall (fun vs => Z.of_nat (length vs) = np) ins ->
  Z.max F d + 3 <= Z.of_nat (length ins) ->
  exists s0 s,
    st_new np w d k = Ok s0 /\
    st_run predict ck s0 (st_game0 w) ins =
      RunStop (map (st_expected_requests np d k ins) (st_zrange 0 (Z.to_nat (Z.max F d + 2))))
              (CallMismatch s (Z.max F d + 2) [F]).
Proof.
  intros predict ck np w d k ins F Hnp Hd Hk Hcap HF Hnoisy Hins Hlen.
  destruct (st_detection predict ck np w d k ins ltac:(lia) ltac:(lia) Hk Hcap Hins F Hnoisy HF ltac:(lia) Hlen) as (s & E).
  exists (st_s0 np w d k), s. split; [apply st_new_ok|exact E].
Qed.

Theorem C13_detection_bound : forall F d, 2 <= F -> 2 <= d -> Z.max F d + 2 <= F + d /\ F + d <= F + d + 2.
Proof. intros F d HF Hd. lia. Qed.

(* which nondeterminism is NOT caught (the model says so, and so does the code): a frame is saved a
   second time only by a resimulation, i.e. frames c-d+1 .. c-1 of a call made at c > d; frames 0 and 1
   are never among them, and with check distance 1 (or 0) nothing is.  For such a game the run
   completes without any MismatchedChecksum, whatever the inputs. *)
Theorem C13_blind_spot : forall predict ck np w d k ins F,
  1 <= np -> 0 <= d < w -> 0 <= k -> k + d + 2 <= INPUT_QUEUE_LENGTH ->
  st_noisy_at ck F -> d <= 1 \/ F <= 1 ->
  Forall (fun vs => Z.of_nat (length vs) = np) ins ->
  exists s0 s g,
    st_new np w d k = Ok s0 /\
    st_run predict ck s0 (st_game0 w) ins =
      RunOk s g (map (st_expected_requests np d k ins) (st_zrange 0 (length ins))).
Proof.
  intros predict ck np w d k ins F Hnp Hd Hk Hcap Hnoisy Hblind Hins.
  destruct (st_run_clean predict ck np w d k ins ltac:(lia) Hd Hk Hcap Hins (st_badn_blind ck np d k ins F Hnoisy Hblind))
    as (s & g & E & _).
  exists (st_s0 np w d k), s, g. split; [apply st_new_ok|exact E].
Qed.

(* the bound on the delay is needed: 1 player, window 2, distance 1, delay 126 (126+1+2 = 129 > 128)
   panics in the input queue (`assert!(self.length <= INPUT_QUEUE_LENGTH)`) on the third call *)
Theorem C13_delay_bound_is_needed :
  st_new 1 2 1 126 = Ok (st_s0 1 2 1 126) /\
  st_run (fun x => x) (fun _ _ => None) (st_s0 1 2 1 126) (st_game0 2) [[1]; [1]; [1]] =
    RunStop [[RSave 0; RAdvance [(0, Confirmed)]]; [RSave 1; RAdvance [(0, Confirmed)]]] CallPanic.
Proof. split; [apply st_new_ok|vm_compute; reflexivity]. Qed.

(* (c) builder side: every call list (unsigned arguments) whose finisher start_synctest_session returns
   a session has check_distance < max_prediction, no sparse saving and >= 1 player; the session gets
   exactly the configured values *)
Theorem C13_builder_gate : forall cs n np w cd dl, Forall usize_call cs ->
  run_calls cs FSyncTest = (n, Ok (SSyncTest np w cd dl)) ->
  1 <= np /\ 0 <= cd < w /\ 0 <= dl /\ sparse_of cs = false /\
  np = np_of cs /\ w = window_of cs /\ cd = check_dist_of cs /\ dl = delay_of cs.
Proof. exact (st_builder_gate default_players_ok). Qed.

(* ... so (a) applies to every SyncTestSession the builder hands out (delay within the ring bound) *)
Theorem C13_accepted_sessions : forall cs n np w cd dl predict ck ins, Forall usize_call cs ->
  run_calls cs FSyncTest = (n, Ok (SSyncTest np w cd dl)) ->
  dl + cd + 2 <= INPUT_QUEUE_LENGTH -> st_deterministic ck ->
  Forall (fun vs => Z.of_nat (length vs) = np) ins ->
  exists s0 s g,
    st_new np w cd dl = Ok s0 /\
    st_run predict ck s0 (st_game0 w) ins =
      RunOk s g (map (st_expected_requests np cd dl ins) (st_zrange 0 (length ins))).
Proof.
  intros cs n np w cd dl predict ck ins Hu Hrun Hcap Hdet Hins.
  destruct (C13_builder_gate cs n np w cd dl Hu Hrun) as (A1 & A2 & A3 & _).
  destruct (C13_no_false_alarm predict ck np w cd dl ins A1 A2 A3 Hcap Hdet Hins) as (s0 & s & g & E1 & E2 & _).
  exists s0, s, g. auto.
Qed.

(* ---------- non-vacuity ---------- *)
(* a deterministic oracle and a clean 20-frame run: 2 players, window 5, check distance 3, delay 1 *)
Example C13_clean_run_example :
  st_deterministic ex_ck /\
  Forall (fun vs => Z.of_nat (length vs) = 2) ex_ins /\
  (exists s g, st_run (fun x => x) ex_ck (st_s0 2 5 3 1) (st_game0 5) ex_ins =
     RunOk s g (map (st_expected_requests 2 3 1 ex_ins) (st_zrange 0 20))) /\
  st_expected_requests 2 3 1 ex_ins 5 =
    [RLoad 2; RAdvance [(1, Confirmed); (3, Confirmed)];
     RSave 3; RAdvance [(2, Confirmed); (5, Confirmed)];
     RSave 4; RAdvance [(3, Confirmed); (7, Confirmed)];
     RSave 5; RAdvance [(4, Confirmed); (9, Confirmed)]].
Proof.
  split; [intros n m tl; reflexivity|]. split; [vm_compute; repeat constructor|].
  split; [apply st_summary_ok; vm_compute; reflexivity|vm_compute; reflexivity].
Qed.

(* an oracle that is noisy at frame 6 only; with check distance 3 it is caught at current_frame 8 *)
Example C13_noisy_frame_caught_example :
  st_noisy_at (ex_ckn 6) 6 /\
  exists s, st_run (fun x => x) (ex_ckn 6) (st_s0 2 5 3 1) (st_game0 5) ex_ins =
    RunStop (map (st_expected_requests 2 3 1 ex_ins) (st_zrange 0 8)) (CallMismatch s 8 [6]).
Proof. split; [apply ex_ckn_noisy|]. apply st_summary_mismatch. vm_compute. reflexivity. Qed.

(* noisy at frame 1: never caught (20 frames shown here, all lengths by C13_blind_spot) *)
Example C13_noisy_frame_1_missed_example :
  st_noisy_at (ex_ckn 1) 1 /\
  exists s g, st_run (fun x => x) (ex_ckn 1) (st_s0 2 5 3 1) (st_game0 5) ex_ins =
    RunOk s g (map (st_expected_requests 2 3 1 ex_ins) (st_zrange 0 20)).
Proof. split; [apply ex_ckn_noisy|]. apply st_summary_ok. vm_compute. reflexivity. Qed.

Check C13_no_false_alarm : forall predict ck np w d k ins,
  1 <= np -> 0 <= d < w -> 0 <= k -> k + d + 2 <= INPUT_QUEUE_LENGTH ->
  st_deterministic ck ->
  Forall (fun vs => Z.of_nat (length vs) = np) ins ->
  exists s0 s g,
    st_new np w d k = Ok s0 /\
    st_run predict ck s0 (st_game0 w) ins =
      RunOk s g (map (st_expected_requests np d k ins) (st_zrange 0 (length ins))) /\
    s_current (st_sync s) = Z.of_nat (length ins) /\
    sg_tl g = map (st_expected np ins k) (st_zrange 0 (length ins)) /\
    Forall (fun e => snd e = st_expected np ins k (fst e)) (sg_log g).
Check C13_detection : forall predict ck np w d k ins F,
  1 <= np -> 2 <= d < w -> 0 <= k -> k + d + 2 <= INPUT_QUEUE_LENGTH -> 2 <= F ->
  st_noisy_at ck F ->
  Forall (fun vs => Z.of_nat (length vs) = np) ins ->
  Z.max F d + 3 <= Z.of_nat (length ins) ->
  exists s0 s,
    st_new np w d k = Ok s0 /\
    st_run predict ck s0 (st_game0 w) ins =
      RunStop (map (st_expected_requests np d k ins) (st_zrange 0 (Z.to_nat (Z.max F d + 2))))
              (CallMismatch s (Z.max F d + 2) [F]).
