(* C02 — the request list of every advance_frame call is executable and frame-consistent.
   The statements of C02, each derived from the lemmas of SessionProofs.v, SessionSparse.v,
   SessionProgress.v and SessionSparse2.v.  Model: coq/P2P.v (session core), coq/Sync.v, coq/Queue.v; the user's game is
   the free game of SessionProofs.v (state = the list of input vectors it was advanced with; a cell
   holds the frame and state of the save that wrote it; exec fails on a Save that names another
   frame than the game's, on a Load that is not earlier, or whose cell does not hold the state saved
   for that frame on the current timeline). *)
From GGRS Require Import Base Consts Queue Sync P2P Session SessionProofs SessionProgress SessionSparse SessionSparse2.
Open Scope Z_scope.

(* For EVERY operation sequence (local inputs, remote inputs, gossip, endpoint disconnects,
   disconnect_player, set_input_delay, advance_frame in any order), any number of players, any
   player kinds, endpoints and spectators, any input delay, any prediction window w >= 0 (rollback
   and lockstep), any predictor: as long as no assert of the code fires, executing the request
   lists of all calls in order is well defined, and afterwards the game's frame is current_frame(). *)
Theorem C02_requests_executable :
  forall (predict : Z -> Z) (n w d : Z) (kinds : list pkind) (eps : list (list Z)) (nspec : nat)
         (ops : list sop) (p : p2p) (outs : list (pout * apires)),
  0 <= w ->
  srun predict (session_start n w false d kinds eps nspec) ops = Ok (p, outs) ->
  exists g, exec_outs w (game0 w) outs = Some g /\ gframe g = s_current (ps_sync p) /\ JI w p g.
Proof.
  intros predict n w d kinds eps nspec ops p outs Hw H.
  destruct (requests_executable predict ops _ _ w p outs (JI_start n w d kinds eps nspec Hw) H) as (g & A & B).
  exists g. split; [exact A|]. split; [apply (ji_frame _ _ _ B)|exact B].
Qed.

(* The same with SPARSE SAVING (only the state of the last saved frame is ever loaded; invariant JS of
   SessionSparse.v: the cell of last_saved_frame holds, in the sync layer's and in the game's view, the
   state the game has for that frame on its current timeline): for EVERY operation sequence of a
   sparse-saving session, as long as no assert fires, the request lists execute in order and the game
   ends at current_frame(); every LoadGameState is inside the prediction window. *)
Theorem C02_requests_executable_sparse :
  forall (predict : Z -> Z) (n w d : Z) (kinds : list pkind) (eps : list (list Z)) (nspec : nat)
         (ops : list sop) (p : p2p) (outs : list (pout * apires)),
  1 <= w ->
  srun predict (session_start n w true d kinds eps nspec) ops = Ok (p, outs) ->
  exists g, exec_outs w (game0 w) outs = Some g /\ gframe g = s_current (ps_sync p) /\ JS w p g.
Proof.
  intros predict n w d kinds eps nspec ops p outs Hw H.
  destruct (sparse_requests_executable predict ops _ _ w p outs (JS_start n w d kinds eps nspec Hw) H) as (g & A & B).
  exists g. split; [exact A|]. split; [apply (js_frame _ _ _ B)|exact B].
Qed.

Theorem C02_one_call_sparse :
  forall (predict : Z -> Z) (p : p2p) (op : sop) (sr : sres) (g : game) (w : Z),
  sstep predict p op = Ok sr -> JS w p g ->
  exists g', exec w g (o_requests (sr_out sr)) = Some g' /\ JS w (sr_state sr) g' /\
    (s_current (ps_sync (sr_state sr)) = s_current (ps_sync p) \/
     (op = SAdvance /\ s_current (ps_sync (sr_state sr)) = s_current (ps_sync p) + 1)) /\
    loads_in_window w (s_current (ps_sync p)) (o_requests (sr_out sr)).
Proof. exact sparse_sstep_exec. Qed.

(* One call, from any state that satisfies the invariant (every reachable state does, by the
   theorem above): its requests execute; the frame is unchanged or - only for advance_frame -
   exactly one higher; the invariant holds again. *)
Theorem C02_one_call :
  forall (predict : Z -> Z) (p : p2p) (op : sop) (sr : sres) (g : game) (w : Z),
  sstep predict p op = Ok sr -> JI w p g ->
  exists g', exec w g (o_requests (sr_out sr)) = Some g' /\ JI w (sr_state sr) g' /\
    (s_current (ps_sync (sr_state sr)) = s_current (ps_sync p) \/
     (op = SAdvance /\ s_current (ps_sync (sr_state sr)) = s_current (ps_sync p) + 1)) /\
    loads_in_window w (s_current (ps_sync p)) (o_requests (sr_out sr)) /\
    (w = 0 -> no_save_load (o_requests (sr_out sr))).
Proof. exact sstep_exec. Qed.

(* In rollback mode the first simulation of frame 0 is preceded by a save of frame 0. *)
Theorem C02_first_frame_saved :
  forall (predict : Z -> Z) (p p' : p2p) (o : pout) (g : game) (w : Z),
  advance predict p = Ok (p', o, AOk) -> JI w p g -> 1 <= w -> s_current (ps_sync p) = 0 ->
  exists R, o_requests o = RSave 0 :: R.
Proof.
  intros predict p p' o g w H J Hw Hc.
  destruct (advance_exec predict p p' o AOk g w H J) as (_ & _ & _ & _ & _ & _ & _ & A & _).
  exact (A Hw eq_refl Hc).
Qed.

(* non-vacuity: a concrete rollback with a misprediction (two players, window 2) *)
Definition c02_demo_ops : list sop :=
  [SLocal 0 1; SAdvance; SLocal 0 1; SAdvance; SRemote 1 0 7; SRemote 1 1 7; SLocal 0 2; SAdvance].
Example C02_demo :
  exists p outs, srun (fun x => x) (session_start 2 2 false 0 [KLocal; KRemote 0] [[1]] 0) c02_demo_ops = Ok (p, outs) /\
    map (fun o => map (fun r => match r with RSave f => (0, f) | RLoad f => (1, f) | RAdvance _ => (2, 0) end) (o_requests (fst o))) outs =
    [[]; [(0,0);(0,0);(2,0)]; []; [(0,1);(2,0)]; []; []; []; [(1,0);(2,0);(0,1);(2,0);(0,2);(2,0)]].
Proof. eexists. eexists. split; vm_compute; reflexivity. Qed.

(* Unconditional in the space of C01 (rollback mode, dense saving, any number of spectators, nobody disconnects;
   local players with one common input delay d, remote players whose inputs arrive in frame order
   while their ring has room; [op_ok] decides membership on the current state, [srun_in] is [srun]
   that answers Err at the first operation outside the space): for EVERY operation sequence NO assert
   of the session core fires - the run is not Panic - and when it stays inside the space the request
   lists of all its calls are executable one after the other, ending at current_frame(). *)
Theorem C02_no_assert_fires_in_space :
  forall (predict : Z -> Z) (n w d : Z) (kinds : list pkind) (eps : list (list Z)) (nspec : nat) (ops : list sop),
  1 <= w -> 0 <= d -> w + d + 3 <= INPUT_QUEUE_LENGTH -> 0 < n -> Z.of_nat (length kinds) = n -> players_only kinds ->
  let p0 := session_start n w false d kinds eps nspec in
  srun_in predict p0 ops = Err \/
  exists p outs g, srun_in predict p0 ops = Ok (p, outs) /\ srun predict p0 ops = Ok (p, outs) /\
    exec_outs w (game0 w) outs = Some g /\ gframe g = s_current (ps_sync p).
Proof.
  intros predict n w d kinds eps nspec ops Hw Hd Hcap Hn Hlen Hpl p0.
  destruct (run_in_space predict ops p0 _ (game0 w) w d (QS_start_g false n w d kinds eps nspec Hw Hd Hcap Hn Hlen Hpl)
              (JI_start n w d kinds eps nspec ltac:(lia)) Hw) as [E|(p & outs & gs & g & E1 & E2 & Ex & _ & HJ)].
  - left. exact E.
  - right. exists p, outs, g. split; [exact E1|]. split; [exact E2|]. split; [exact Ex|apply (ji_frame _ _ _ HJ)].
Qed.

(* non-vacuity: the demo run above lies inside the space *)
Example C02_demo_in_space :
  exists r, srun_in (fun x => x) (session_start 2 2 false 0 [KLocal; KRemote 0] [[1]] 0) c02_demo_ops = Ok r.
Proof. eexists. vm_compute. reflexivity. Qed.

(* non-vacuity: the demo run with sparse saving on: a rollback loads the last saved frame (0) and the
   confirmed frame is saved on the way *)
Example C02_demo_sparse :
  exists p outs, srun (fun x => x) (session_start 2 2 true 0 [KLocal; KRemote 0] [[1]] 0) c02_demo_ops = Ok (p, outs) /\
    map (fun o => map (fun r => match r with RSave f => (0, f) | RLoad f => (1, f) | RAdvance _ => (2, 0) end) (o_requests (fst o))) outs =
    [[]; [(0,0);(2,0)]; []; [(2,0)]; []; []; []; [(1,0);(2,0);(0,1);(2,0);(2,0)]].
Proof. eexists. eexists. split; vm_compute; reflexivity. Qed.


(* The same, unconditionally, for SPARSE SAVING (SessionBuilder::with_sparse_saving_mode) - the mode whose
   rollback loads `last_saved_frame` instead of the first incorrect frame and which carries asserts of its
   own (first_incorrect >= frame_to_load, load inside the window, the saved cell holds that frame,
   last_saved == min(confirmed, current) after a forced save): inside C01's space NO assert of the session
   core fires for ANY operation sequence, and the request lists of the whole run execute one after the other. *)
Theorem C02_no_assert_fires_in_space_sparse :
  forall (predict : Z -> Z) (n w d : Z) (kinds : list pkind) (eps : list (list Z)) (nspec : nat) (ops : list sop),
  1 <= w -> 0 <= d -> w + d + 3 <= INPUT_QUEUE_LENGTH -> 0 < n -> Z.of_nat (length kinds) = n -> players_only kinds ->
  let p0 := session_start n w true d kinds eps nspec in
  srun_in predict p0 ops = Err \/
  exists p outs g, srun_in predict p0 ops = Ok (p, outs) /\ srun predict p0 ops = Ok (p, outs) /\
    exec_outs w (game0 w) outs = Some g /\ gframe g = s_current (ps_sync p).
Proof.
  intros predict n w d kinds eps nspec ops Hw Hd Hcap Hn Hlen Hpl p0.
  destruct (sparse_run_in_space predict ops p0 _ (game0 w) w d (QS_start_g true n w d kinds eps nspec Hw Hd Hcap Hn Hlen Hpl)
              (JS_start n w d kinds eps nspec Hw) (SX_start n w d kinds eps nspec)) as [E|(p & outs & gs & g & E1 & E2 & Ex & _ & HJ & _)].
  - left. exact E.
  - right. exists p, outs, g. split; [exact E1|]. split; [exact E2|]. split; [exact Ex|apply (js_frame _ _ _ HJ)].
Qed.

(* non-vacuity: the sparse demo run above lies inside the space *)
Example C02_demo_sparse_in_space :
  exists r, srun_in (fun x => x) (session_start 2 2 true 0 [KLocal; KRemote 0] [[1]] 0) c02_demo_ops = Ok r.
Proof. eexists. vm_compute. reflexivity. Qed.
