(* C04 — speculation is bounded by the prediction window; lockstep never speculates.
   The statements of C04, each derived from the lemmas of SessionProofs.v, SessionProgress.v,
   SessionSparse2.v and SessionLockstep.v (same model and conventions as props/C02.v). *)
From GGRS Require Import Base Consts Queue QueueProofs Sync P2P Session SessionProofs SessionProgress SessionSparse SessionSparse2 SessionTimeline SessionLockstep.
Open Scope Z_scope.

(* Every LoadGameState of every call names a frame at most max_prediction frames behind the frame
   the game is at, for every reachable state and every operation (no assert firing is the premise:
   sstep = Ok). *)
Theorem C04_loads_inside_window :
  forall (predict : Z -> Z) (p : p2p) (op : sop) (sr : sres) (g : game) (w : Z),
  sstep predict p op = Ok sr -> JI w p g ->
  forall f, In (RLoad f) (o_requests (sr_out sr)) -> s_current (ps_sync p) - w <= f < s_current (ps_sync p).
Proof.
  intros predict p op sr g w H J f Hin.
  destruct (sstep_exec predict p op sr g w H J) as (_ & _ & _ & _ & A & _).
  exact (A (RLoad f) Hin).
Qed.

(* A new frame c is simulated (current_frame() goes up) only as the last request of the call and only
   if it lies inside the window of a frame cf that is the confirmed_frame of some session state q
   (cf = -1: nothing held):
     lockstep (w = 0):  c <= cf;      rollback:  c - cf < w   (c < w when nothing is held).
   The statement ties q to the call only in lockstep, where q has the connection statuses of the state after the
   call; SessionProofs.advance_roll_exec names the state for rollback mode: the one after this call's
   update_player_disconnects. *)
Theorem C04_speculation_bounded :
  forall (predict : Z -> Z) (p p' : p2p) (o : pout) (r : apires) (g : game) (w : Z),
  advance predict p = Ok (p', o, r) -> JI w p g ->
  s_current (ps_sync p') = s_current (ps_sync p) + 1 ->
  (exists ins R0, o_requests o = R0 ++ [RAdvance ins]) /\
  exists cf, (if w =? 0 then s_current (ps_sync p) <= cf
              else if cf <? 0 then s_current (ps_sync p) < w else s_current (ps_sync p) - cf < w) /\
             (exists q, confirmed_frame q = Ok cf /\ (w = 0 -> ps_status q = ps_status p')).
Proof.
  intros predict p p' o r g w H J Hadv.
  destruct (advance_exec predict p p' o r g w H J) as (_ & _ & _ & _ & _ & _ & _ & _ & A).
  exact (A Hadv).
Qed.

(* Lockstep: never SaveGameState / LoadGameState, every AdvanceFrame carries only Confirmed or
   Disconnected inputs, and a call either simulates exactly one frame or leaves current_frame()
   unchanged (a stalled call emits nothing). *)
Theorem C04_lockstep :
  forall (predict : Z -> Z) (p : p2p) (op : sop) (sr : sres) (g : game),
  sstep predict p op = Ok sr -> JI 0 p g ->
  no_save_load (o_requests (sr_out sr)) /\
  (s_current (ps_sync (sr_state sr)) = s_current (ps_sync p) \/
   (op = SAdvance /\ s_current (ps_sync (sr_state sr)) = s_current (ps_sync p) + 1)).
Proof.
  intros predict p op sr g H J.
  destruct (sstep_exec predict p op sr g 0 H J) as (_ & _ & _ & A & _ & B).
  split; [exact (B eq_refl)|exact A].
Qed.

Theorem C04_lockstep_stall_emits_nothing :
  forall (predict : Z -> Z) (p p' : p2p) (o : pout) (r : apires) (g : game),
  advance predict p = Ok (p', o, r) -> JI 0 p g ->
  (forall ins, ~ In (RAdvance ins) (o_requests o)) -> s_current (ps_sync p') = s_current (ps_sync p).
Proof.
  intros predict p p' o r g H J Hno.
  destruct (advance_exec predict p p' o r g 0 H J) as (_ & _ & _ & [A|A] & _ & _ & _ & _ & B); [exact A|].
  destruct (B A) as ((ins & R0 & E) & _). exfalso. apply (Hno ins). rewrite E. apply in_or_app. right. left. reflexivity.
Qed.

(* non-vacuity: a starved peer stops after w frames (window 2, remote silent) *)
Example C04_demo :
  exists p outs, srun (fun x => x) (session_start 2 2 false 0 [KLocal; KRemote 0] [[1]] 0)
                   [SLocal 0 1; SAdvance; SLocal 0 1; SAdvance; SLocal 0 1; SAdvance; SLocal 0 1; SAdvance] = Ok (p, outs) /\
                 s_current (ps_sync p) = 2.
Proof. eexists. eexists. split; vm_compute; reflexivity. Qed.

(* Unconditional in C01's space (see props/C02.v, C02_no_assert_fires_in_space): after ANY run inside
   the space the session has not run ahead of what it holds: current_frame() is at most
   max_prediction frames past the last confirmed frame (past frame 0 while nothing is confirmed),
   and the last confirmed frame never exceeds the frames held from any player. *)
Theorem C04_window_invariant_in_space :
  forall (predict : Z -> Z) (n w d : Z) (kinds : list pkind) (eps : list (list Z)) (nspec : nat) (ops : list sop) p outs,
  1 <= w -> 0 <= d -> w + d + 3 <= INPUT_QUEUE_LENGTH -> 0 < n -> Z.of_nat (length kinds) = n -> players_only kinds ->
  srun_in predict (session_start n w false d kinds eps nspec) ops = Ok (p, outs) ->
  s_current (ps_sync p) <= Z.max 0 (s_last_confirmed (ps_sync p)) + w /\
  Forall (fun st => s_last_confirmed (ps_sync p) <= cs_last st) (ps_status p).
Proof.
  intros predict n w d kinds eps nspec ops p outs Hw Hd Hcap Hn Hlen Hpl H.
  destruct (run_in_space predict ops _ _ (game0 w) w d (QS_start_g false n w d kinds eps nspec Hw Hd Hcap Hn Hlen Hpl)
              (JI_start n w d kinds eps nspec ltac:(lia)) Hw) as [E|(p' & outs' & gs & g & E1 & _ & _ & HQS & _)]; [congruence|].
  rewrite H in E1. injection E1 as <- <-.
  split; [destruct (qs_frames _ _ _ _ HQS) as (_ & _ & X); rewrite (Z.max_r 1 w) in X by lia; exact X|].
  exact (QS_confirmed_held _ _ _ _ _ HQS).
Qed.

(* The same for sparse saving, where the window also bounds how far the one saved state may fall behind:
   after ANY run inside the space, last_saved_frame is unset only before the first frame, and otherwise
   lies between the last confirmed frame and the current frame, at most max_prediction frames back -
   so the LoadGameState a rollback issues (always of last_saved_frame) is inside the window. *)
Theorem C04_window_invariant_in_space_sparse :
  forall (predict : Z -> Z) (n w d : Z) (kinds : list pkind) (eps : list (list Z)) (nspec : nat) (ops : list sop) p outs,
  1 <= w -> 0 <= d -> w + d + 3 <= INPUT_QUEUE_LENGTH -> 0 < n -> Z.of_nat (length kinds) = n -> players_only kinds ->
  srun_in predict (session_start n w true d kinds eps nspec) ops = Ok (p, outs) ->
  s_current (ps_sync p) <= Z.max 0 (s_last_confirmed (ps_sync p)) + w /\
  Forall (fun st => s_last_confirmed (ps_sync p) <= cs_last st) (ps_status p) /\
  ((s_last_saved (ps_sync p) = NULL /\ s_current (ps_sync p) = 0) \/
   (s_last_confirmed (ps_sync p) <= s_last_saved (ps_sync p) <= s_current (ps_sync p) /\
    0 <= s_last_saved (ps_sync p) /\ s_current (ps_sync p) - s_last_saved (ps_sync p) <= w)).
Proof.
  intros predict n w d kinds eps nspec ops p outs Hw Hd Hcap Hn Hlen Hpl H.
  destruct (sparse_run_in_space predict ops _ _ (game0 w) w d (QS_start_g true n w d kinds eps nspec Hw Hd Hcap Hn Hlen Hpl)
              (JS_start n w d kinds eps nspec Hw) (SX_start n w d kinds eps nspec)) as [E|(p' & outs' & gs & g & E1 & _ & _ & HQS & _ & HSX)]; [congruence|].
  rewrite H in E1. injection E1 as <- <-.
  destruct (qs_frames _ _ _ _ HQS) as (F1 & F2 & F3). rewrite (Z.max_r 1 w) in F3 by lia. destruct HSX as [X1 X2 X3 X4 X5].
  split; [exact F3|]. split; [exact (QS_confirmed_held _ _ _ _ _ HQS)|].
  destruct (Z.eq_dec (s_last_saved (ps_sync p)) NULL) as [En|En]; [left; split; [exact En|exact (X2 En)]|right].
  unfold NULL in En. lia.
Qed.

(* non-vacuity: a starved sparse-saving peer stops after w frames, its saved frame still 0 *)
Example C04_demo_sparse :
  exists p outs, srun_in (fun x => x) (session_start 2 2 true 0 [KLocal; KRemote 0] [[1]] 0)
                   [SLocal 0 1; SAdvance; SLocal 0 1; SAdvance; SLocal 0 1; SAdvance; SLocal 0 1; SAdvance] = Ok (p, outs) /\
                 s_current (ps_sync p) = 2 /\ s_last_saved (ps_sync p) = 0.
Proof. eexists. eexists. split; [|split]; vm_compute; reflexivity. Qed.

(* LOCKSTEP, UNCONDITIONALLY (max_prediction = 0, any number of spectators; coq/SessionLockstep.v).  Inside the space - nobody
   disconnects, remote inputs arrive in frame order while the ring has room, local players share the input
   delay d - for EVERY operation sequence: no modelled assert fires (the run is Err only when it leaves the
   space), the request lists execute, every request of every call is an AdvanceFrame whose inputs are ALL
   Confirmed (no Save, no Load, no predicted or Disconnected input: lockstep never speculates), and every
   frame the game has simulated was simulated - once - with exactly the inputs held for it. *)
Theorem C04_lockstep_never_speculates :
  forall (predict : Z -> Z), (forall x, predict (predict x) = predict x) -> predict 0 = 0 ->
  forall (ops : list sop) (n d : Z) (kinds : list pkind) (eps : list (list Z)) (nspec : nat),
  0 <= d -> d + 4 <= INPUT_QUEUE_LENGTH -> 0 < n -> Z.of_nat (length kinds) = n -> players_only kinds ->
  let p0 := session_start n 0 false d kinds eps nspec in
  srun_in predict p0 ops = Err \/
  exists p outs g gs, srun_in predict p0 ops = Ok (p, outs) /\ srun predict p0 ops = Ok (p, outs) /\
    exec_outs 0 (game0 0) outs = Some g /\ gframe g = s_current (ps_sync p) /\ QSg false 0 d p gs /\
    Forall (fun o : pout * apires => all_confirmed (o_requests (fst o))) outs /\
    (forall h hist low f, nth_error gs h = Some (hist, low) -> 0 <= f < s_current (ps_sync p) ->
       f < hlen hist /\ gvalL (g_hist g) f h = hval hist f).
Proof.
  intros predict Hi Hz ops n d kinds eps nspec Hd Hcap Hn Hlen Hpl p0.
  destruct (lockstep_start_ok predict n d kinds eps nspec Hd Hcap Hn Hlen Hpl) as (HQS0 & HCI0).
  destruct (lockstep_run predict Hi Hz ops p0 _ (game0 0) d HQS0 HCI0 (TI_start_g predict false n 0 d kinds eps nspec))
    as [E|(p & outs & gs & g & E1 & E2 & Ex & HQS & HCI & HTI & HA)]; [left; exact E|right].
  exists p, outs, g, gs. split; [exact E1|]. split; [exact E2|]. split; [exact Ex|].
  split; [exact (lockstep_CI_frame predict _ _ _ HCI)|]. split; [exact HQS|]. split; [exact HA|].
  destruct HCI as (_ & _ & HLK & _). intros h hist low f. exact (lockstep_known predict d p gs _ h hist low f HQS HLK HTI).
Qed.

(* non-vacuity: a lockstep run inside the space; the session advances only once the remote input of the
   frame has arrived, and hands it out as Confirmed *)
Example C04_lockstep_demo :
  exists p outs, srun_in (fun x => x) (session_start 2 0 false 0 [KLocal; KRemote 0] [[1]] 0)
      [SLocal 0 1; SAdvance; SRemote 1 0 7; SLocal 0 1; SAdvance; SLocal 0 2; SAdvance] = Ok (p, outs) /\
    map (fun o => o_requests (fst o)) outs =
      [[]; []; []; []; [RAdvance [(1, Confirmed); (7, Confirmed)]]; []; []] /\ s_current (ps_sync p) = 1.
Proof. eexists. eexists. split; [vm_compute; reflexivity|]. split; vm_compute; reflexivity. Qed.
