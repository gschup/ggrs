(* C06 — a spectator replays exactly the host's confirmed input sequence (spectator half:
   SpectatorSession, src/sessions/p2p_spectator_session.rs).  The statements, each derived from
   the lemmas of SpectatorProofs.v: the reachable states as a function of the received timeline
   (sp_reach, sp_abs) and what inputs_at_frame and advance_frame answer there (sp_grab_abs,
   sp_advance_abs, sp_call).

   Setting of every theorem: an arbitrary sequence [ops] of
     sp_HFrame evs   the Input events of the next frame 0, 1, 2, ... as the endpoint emits them
                     (one per player handle, in handle order, each with the endpoint's
                     peer_connect_status at that moment),
     sp_HSync        Event::Synchronized,
     sp_HAdvance     a call of advance_frame(),
   run from SpectatorSession::new (sp_start num_players max_frames_behind catchup_speed).
   Hypotheses: num_players >= 1; [sp_wf]: every frame delivers all num_players players and every
   status list has num_players entries (UdpProtocol::on_input, Endpoint model); fewer than 2^31
   frames (Frame = i32).  [sp_hist ops] is the host's timeline: the values of frame 0, 1, 2, ...
   No bound on max_frames_behind / catchup_speed is needed for any of the statements. *)
From GGRS Require Import Queue QueueProofs Sync P2P Session SessionProofs SessionSparse SessionProgress SessionSparse2 SessionTimeline SessionTimelineSparse SessionLockstep.
From GGRS Require SessionSystem.
From GGRS Require Import Base Consts Spectator SpectatorProofs.
Open Scope Z_scope.

(* (a) the ring.  In every reachable state, for every frame f: inputs_at_frame f answers
   PredictionThreshold iff f is newer than the last received frame, SpectatorTooFarBehind iff the
   host is SPECTATOR_BUFFER_SIZE or more frames past f (the slot holds a newer frame), and
   otherwise Ok with exactly the values received for frame f - never other inputs, never a panic. *)
Theorem C06_ring : forall (n mfb cs : Z) (ops : list sp_hop) (t : sp_trace) (f : Z),
  1 <= n -> sp_wf n ops -> sp_hlen (sp_hist ops) < 2 ^ 31 ->
  sp_hrun (sp_start n mfb cs) ops = Ok t -> 0 <= f < 2 ^ 31 ->
  let s := sp_t_state t in
  let lst := sp_hlen (sp_hist ops) - 1 in
  sp_last_recv_frame s = lst /\
  (sp_inputs_at_frame s f = Ok (sp_Fail sp_PredictionThreshold) <-> lst < f) /\
  (sp_inputs_at_frame s f = Ok (sp_Fail sp_SpectatorTooFarBehind) <-> f <= lst - SPECTATOR_BUFFER_SIZE) /\
  (forall v, sp_inputs_at_frame s f = Ok (sp_Got v) ->
     lst - SPECTATOR_BUFFER_SIZE < f <= lst /\ map fst v = nth (Z.to_nat f) (sp_hist ops) []) /\
  (lst - SPECTATOR_BUFFER_SIZE < f <= lst -> exists v, sp_inputs_at_frame s f = Ok (sp_Got v)).
Proof.
  intros n mfb cs ops t f Hn W Hb R Hf s lst.
  destruct (sp_reached n mfb cs ops t Hn W Hb R) as [r calls K D Hle]. cbn [sp_t_state] in s.
  split; [reflexivity|]. unfold s. rewrite sp_grab_abs by (try exact K; lia). fold lst. pose proof sp_size_pos as Hp.
  destruct (Z.ltb_spec lst f) as [C1|C1]; [|destruct (Z.leb_spec f (lst - SPECTATOR_BUFFER_SIZE)) as [C2|C2]].
  - split; [split; [lia|reflexivity]|]. split; [split; [discriminate|lia]|]. split; [discriminate|lia].
  - split; [split; [discriminate|lia]|]. split; [split; [lia|reflexivity]|]. split; [discriminate|lia].
  - split; [split; [discriminate|lia]|]. split; [split; [discriminate|lia]|]. split; [|intros _; eexists; reflexivity].
    intros v Hv. injection Hv as <-. split; [lia|]. apply (sp_request_vals n _ _ f K). unfold lst in *. lia.
Qed.

(* (b) order.  The run never panics; the concatenation of all AdvanceFrame requests ever returned
   is frame 0, 1, 2, ... of the host's timeline (the k-th delivered request carries the values
   received for frame k: no gap, repeat or reordering); current_frame = (number delivered) - 1
   (so frames advanced inside a call that then fails would show up here: there are none);
   and the spectator is never ahead of what it received. *)
Theorem C06_order : forall (n mfb cs : Z) (ops : list sp_hop),
  1 <= n -> sp_wf n ops -> sp_hlen (sp_hist ops) < 2 ^ 31 ->
  exists t, sp_hrun (sp_start n mfb cs) ops = Ok t /\
    let del := sp_delivered (sp_t_calls t) in
    (forall k, (k < length del)%nat -> map fst (nth k del []) = nth k (sp_hist ops) []) /\
    sp_current_frame (sp_t_state t) = sp_hlen del - 1 /\
    sp_current_frame (sp_t_state t) <= sp_last_recv_frame (sp_t_state t) /\
    sp_last_recv_frame (sp_t_state t) = sp_hlen (sp_hist ops) - 1.
Proof.
  intros n mfb cs ops Hn W Hb. destruct (sp_reach n mfb cs ops Hn W Hb) as (t & R & T).
  exists t. split; [exact R|]. destruct T as [r calls K D Hle]. cbn [sp_t_calls sp_t_state sp_abs sp_current_frame sp_last_recv_frame].
  split; [exact D|]. split; [reflexivity|]. split; [unfold sp_hlen; lia|reflexivity].
Qed.

Theorem C06_no_panic : forall (n mfb cs : Z) (ops : list sp_hop),
  1 <= n -> sp_wf n ops -> sp_hlen (sp_hist ops) < 2 ^ 31 ->
  sp_hrun (sp_start n mfb cs) ops <> Panic.
Proof.
  intros n mfb cs ops Hn W Hb. destruct (sp_reach n mfb cs ops Hn W Hb) as (t & R & _). rewrite R. discriminate.
Qed.

(* (c) catch-up.  In every reachable state the next advance_frame call does not panic
   (frames_behind_host's assert!(diff >= 0) holds); it delivers at most max(1, catchup_speed)
   frames and at most max(1, frames behind); more than one only if more than max_frames_behind
   frames are outstanding; exactly one while 1 <= behind <= max_frames_behind; an Err leaves the
   session exactly as it was (no frame is consumed by a failing call), PredictionThreshold only
   with nothing outstanding, SpectatorTooFarBehind only when more than SPECTATOR_BUFFER_SIZE
   frames are outstanding. *)
Theorem C06_catchup : forall (n mfb cs : Z) (ops : list sp_hop) (t : sp_trace),
  1 <= n -> sp_wf n ops -> sp_hlen (sp_hist ops) < 2 ^ 31 ->
  sp_hrun (sp_start n mfb cs) ops = Ok t ->
  let s := sp_t_state t in
  exists s' o, sp_advance s = Ok (s', o) /\
    exists behind, sp_frames_behind s = Ok behind /\ 0 <= behind /\
    match o with
    | sp_Delivered l =>
        sp_hlen l <= Z.max 1 cs /\ sp_hlen l <= Z.max 1 behind /\
        (1 < sp_hlen l -> mfb < behind) /\
        (behind <= mfb -> 1 <= behind -> sp_hlen l = 1) /\
        s' = sp_set_current s (sp_current_frame s + sp_hlen l)
    | sp_Failed e =>
        s' = s /\
        (e = sp_NotSynchronized <-> sp_running s = false) /\
        (e = sp_PredictionThreshold -> behind = 0) /\
        (e = sp_SpectatorTooFarBehind -> SPECTATOR_BUFFER_SIZE < behind)
    end.
Proof.
  intros n mfb cs ops t Hn W Hb R s.
  destruct (sp_reached n mfb cs ops t Hn W Hb R) as [r calls K D Hle]. cbn [sp_t_state] in s.
  set (cur := sp_hlen (sp_delivered calls) - 1) in *. set (host := sp_last_status _ ops) in *.
  assert (Hle' : sp_current_frame s <= sp_last_recv_frame s) by (cbn [s sp_abs sp_current_frame sp_last_recv_frame]; unfold cur, sp_hlen; lia).
  pose proof (sp_call_bounds n mfb cs r cur (sp_hist ops) host ltac:(cbn [s sp_abs sp_current_frame sp_last_recv_frame] in Hle'; lia)) as B.
  unfold s at 1. rewrite sp_advance_abs by (try exact K; unfold cur, sp_hlen in *; lia). fold s.
  do 2 eexists. split; [reflexivity|]. exists (sp_last_recv_frame s - sp_current_frame s).
  split; [apply sp_frames_behind_ok; exact Hle'|]. split; [lia|].
  destruct (sp_call n mfb cs r cur (sp_hist ops) host) as [l|e]; cbn [sp_requests].
  - split; [apply B|]. split; [apply B|]. split; [apply B|]. split; [apply B|reflexivity].
  - split; [|exact B]. unfold sp_hlen. cbn [length]. rewrite Z.add_0_r. reflexivity.
Qed.

(* (d) status.  The k-th request of a call carries one (value, status) per player, and the status
   of player p is Disconnected iff the peer_connect_status copied by the LAST Input event before
   the call says disconnected with last_frame < the frame being delivered, Confirmed otherwise
   (sp_stat frame c = if c.disconnected && c.last_frame < frame then Disconnected else Confirmed). *)
Theorem C06_status : forall (n mfb cs : Z) (ops : list sp_hop) (t : sp_trace) (s' : sp_state)
    (l : list (list (Z * sp_istatus))) (k : nat) (p : Z),
  1 <= n -> sp_wf n ops -> sp_hlen (sp_hist ops) < 2 ^ 31 ->
  sp_hrun (sp_start n mfb cs) ops = Ok t ->
  sp_advance (sp_t_state t) = Ok (s', sp_Delivered l) ->
  (k < length l)%nat -> 0 <= p < n ->
  let frame := sp_current_frame (sp_t_state t) + 1 + Z.of_nat k in
  let host := sp_last_status (sp_default_status n) ops in
  length (nth k l []) = Z.to_nat n /\ length host = Z.to_nat n /\
  snd (nth (Z.to_nat p) (nth k l []) (0, sp_Confirmed)) = sp_stat frame (nth (Z.to_nat p) host sp_cs_default).
Proof.
  intros n mfb cs ops t s' l k p Hn W Hb R A Hk Hp frame host.
  destruct (sp_reached n mfb cs ops t Hn W Hb R) as [r calls K D Hle]. cbn [sp_t_state sp_abs sp_current_frame] in *.
  set (cur := sp_hlen (sp_delivered calls) - 1) in *.
  assert (Hcur : -1 <= cur < sp_hlen (sp_hist ops)) by (unfold cur, sp_hlen; lia).
  rewrite sp_advance_abs in A by (try exact K; lia). injection A as _ A.
  destruct (sp_call_requests n mfb cs r cur (sp_hist ops) host) as (j & E & Hj); [lia|].
  fold host in A. rewrite A in E. cbn [sp_requests] in E.
  subst l. rewrite map_length, sp_frames_length in Hk. rewrite sp_nth_map_frames by exact Hk. fold frame.
  destruct (sp_request_status n (sp_hist ops) host frame (Z.to_nat p) K) as (H1 & H2); [unfold frame; lia|].
  split; [exact H1|]. split; [apply K|exact H2].
Qed.

(* the generated constants: the ring size is positive and fits i32, the normal speed is one frame *)
Theorem C06_consts : 0 < SPECTATOR_BUFFER_SIZE <= 2 ^ 31 /\ NORMAL_SPEED = 1.
Proof. split; [split; [reflexivity|discriminate]|reflexivity]. Qed.

(* non-vacuity: the hypotheses are satisfiable and the interesting branches are reached *)
(* an overrun: two frames replayed, then 61 more frames arrive before the next call: frame 2 has
   been overwritten by frame 62, the call reports SpectatorTooFarBehind and consumes nothing *)
Example C06_overrun_demo :
  sp_wf 2 sp_ex_overrun /\
  sp_outcomes (sp_hrun (sp_start 2 10 3) sp_ex_overrun) =
    [sp_Delivered [[(1, sp_Confirmed); (2, sp_Confirmed)]];
     sp_Delivered [[(11, sp_Confirmed); (12, sp_Confirmed)]];
     sp_Failed sp_SpectatorTooFarBehind] /\
  sp_final_frame (sp_hrun (sp_start 2 10 3) sp_ex_overrun) = 1.
Proof. split; [apply sp_wfb_ok|split]; vm_compute; reflexivity. Qed.

(* a catch-up run: 14 frames buffered, max_frames_behind = 10, catchup_speed = 3: 3, 3, then 1 *)
Example C06_catchup_demo :
  sp_wf 2 sp_ex_catchup /\
  map (fun o => match o with sp_Delivered l => map (map fst) l | sp_Failed _ => [] end)
      (sp_outcomes (sp_hrun (sp_start 2 10 3) sp_ex_catchup)) =
    [ [[1; 2]; [11; 12]; [21; 22]]; [[31; 32]; [41; 42]; [51; 52]]; [[61; 62]] ] /\
  sp_final_frame (sp_hrun (sp_start 2 10 3) sp_ex_catchup) = 6.
Proof. split; [apply sp_wfb_ok|split]; vm_compute; reflexivity. Qed.

(* a player the host reports disconnected at frame 0: Confirmed for frame 0, Disconnected for 1 *)
Example C06_status_demo :
  sp_wf 2 sp_ex_disc /\
  sp_outcomes (sp_hrun (sp_start 2 10 1) sp_ex_disc) =
    [sp_Delivered [[(5, sp_Confirmed); (6, sp_Confirmed)]];
     sp_Delivered [[(7, sp_Confirmed); (0, sp_Disconnected)]]].
Proof. split; [apply sp_wfb_ok|]; vm_compute; reflexivity. Qed.

Check C06_order : forall (n mfb cs : Z) (ops : list sp_hop),
  1 <= n -> sp_wf n ops -> sp_hlen (sp_hist ops) < 2 ^ 31 ->
  exists t, sp_hrun (sp_start n mfb cs) ops = Ok t /\
    let del := sp_delivered (sp_t_calls t) in
    (forall k, (k < length del)%nat -> map fst (nth k del []) = nth k (sp_hist ops) []) /\
    sp_current_frame (sp_t_state t) = sp_hlen del - 1 /\
    sp_current_frame (sp_t_state t) <= sp_last_recv_frame (sp_t_state t) /\
    sp_last_recv_frame (sp_t_state t) = sp_hlen (sp_hist ops) - 1.
Check C06_no_panic : forall (n mfb cs : Z) (ops : list sp_hop),
  1 <= n -> sp_wf n ops -> sp_hlen (sp_hist ops) < 2 ^ 31 ->
  sp_hrun (sp_start n mfb cs) ops <> Panic.

(* ---------------------------------------------------------------------------------------------------
   HOST HALF (P2PSession::send_confirmed_inputs_to_spectators; model coq/P2P.v, `session` correspondence
   level with spectator puppets).  Space: C01's (props/C01.v; both saving modes) with any number nspec >= 1 of spectators.
   After ANY run inside the space, everything the host has handed to its spectator endpoints - all calls
   concatenated ([all_spec_sends]) - is frame 0, 1, 2, ..., next_spectator_frame - 1: each frame exactly
   once, in order, each with the inputs the host holds for it ([held_at gs f]: for every player the
   f-th entry of its input history - for remote players the f-th input delivered, for local players the
   registered delayed input: props/C01.v); every frame up to the last confirmed frame has been sent; and
   no frame is sent for which some player's input is not yet held - so never a predicted value.  With
   the spectator half above: a spectator's n-th AdvanceFrame carries the host's confirmed inputs of
   frame n. *)
Theorem C06_host_broadcast_is_confirmed_timeline :
  forall (predict : Z -> Z), (forall x, predict (predict x) = predict x) -> predict 0 = 0 ->
  forall (sparse : bool) (ops : list sop) (n w d : Z) (kinds : list pkind) (eps : list (list Z)) (nspec : nat) (p : p2p) (outs : list (pout * apires)),
  1 <= w -> 0 <= d -> w + d + 3 <= INPUT_QUEUE_LENGTH -> 0 < n -> Z.of_nat (length kinds) = n -> players_only kinds -> (0 < nspec)%nat ->
  srun_in predict (session_start n w sparse d kinds eps nspec) ops = Ok (p, outs) ->
  exists gs, QSg sparse w d p gs /\
    all_spec_sends outs = map (fun f => (f, held_at gs f)) (zrange_from 0 (Z.to_nat (ps_next_spec p))) /\
    0 <= ps_next_spec p /\ s_last_confirmed (ps_sync p) + 1 <= ps_next_spec p /\
    Forall (fun g : ghost => ps_next_spec p <= hlen (fst g)) gs.
Proof.
  intros predict Hi Hz [|].
  - exact (sparse_host_broadcast_is_confirmed_timeline predict Hi Hz).
  - exact (host_broadcast_is_confirmed_timeline predict Hi Hz).
Qed.

(* the same for a LOCKSTEP host (max_prediction = 0): there the broadcast of a call includes the frame whose local
   input that same call registered *)
Theorem C06_host_broadcast_is_confirmed_timeline_lockstep :
  forall (predict : Z -> Z), (forall x, predict (predict x) = predict x) -> predict 0 = 0 ->
  forall (ops : list sop) (n d : Z) (kinds : list pkind) (eps : list (list Z)) (nspec : nat) (p : p2p) (outs : list (pout * apires)),
  0 <= d -> d + 4 <= INPUT_QUEUE_LENGTH -> 0 < n -> Z.of_nat (length kinds) = n -> players_only kinds -> (0 < nspec)%nat ->
  srun_in predict (session_start n 0 false d kinds eps nspec) ops = Ok (p, outs) ->
  exists gs, QSg false 0 d p gs /\
    all_spec_sends outs = map (fun f => (f, held_at gs f)) (zrange_from 0 (Z.to_nat (ps_next_spec p))) /\
    0 <= ps_next_spec p /\ s_last_confirmed (ps_sync p) + 1 <= ps_next_spec p /\
    Forall (fun g : ghost => ps_next_spec p <= hlen (fst g)) gs.
Proof. exact lockstep_host_broadcast. Qed.

(* non-vacuity: one spectator; after the run of props/C01.v's demo the spectator has been sent frames 0
   and 1 with player 1's real inputs 7, 7 (never the predictions 0, 0 the host itself simulated first) *)
Example C06_host_demo :
  exists p outs, srun_in (fun x => x) (session_start 2 2 false 0 [KLocal; KRemote 0] [[1]] 1)
      [SLocal 0 1; SAdvance; SLocal 0 1; SAdvance; SRemote 1 0 7; SRemote 1 1 7; SLocal 0 2; SAdvance] = Ok (p, outs) /\
    map (fun fs => (fst fs, map pi_val (snd fs))) (all_spec_sends outs) = [(0, [1; 7]); (1, [1; 7])].
Proof. eexists. eexists. split; vm_compute; reflexivity. Qed.

(* HOST AND SPECTATOR TOGETHER (coq/SessionSystem.v).  A host (rollback mode with either saving mode, or lockstep:
   [mode_ok]) runs ANY operation
   sequence of C01's space with at least one spectator attached; a spectator runs ANY sequence of arriving frames and
   advance_frame calls (any pauses, any catch-up settings).  The one assumption is the link contract
   [spectator_got_prefix]: the frames that reached the spectator are, in order, the first so-many frames the host
   handed to its spectator endpoints (each frame once, in order, unaltered - what the endpoint delivers: props/C05.v,
   C14.v).  Then the spectator never panics, it never advances beyond what the host broadcast, and the k-th frame it
   is asked to advance carries, for every player, exactly the input the host holds for frame k - which, for every
   frame the host has confirmed and simulated, is the input the host's own game last simulated frame k with:
   no gap, no repeat, no reordering, no predicted value. *)
Theorem C06_spectator_replays_host :
  forall (predict : Z -> Z), (forall x, predict (predict x) = predict x) -> predict 0 = 0 ->
  forall (sparse : bool) (ops : list sop) (n w d : Z) (kinds : list pkind) (eps : list (list Z)) (nspec : nat)
         (p : p2p) (outs : list (pout * apires)) (mfb cs : Z) (opsS : list sp_hop),
  SessionSystem.mode_ok sparse w d -> 0 <= d -> 0 < n -> Z.of_nat (length kinds) = n -> players_only kinds -> (0 < nspec)%nat ->
  srun_in predict (session_start n w sparse d kinds eps nspec) ops = Ok (p, outs) ->
  sp_wf n opsS -> sp_hlen (sp_hist opsS) < 2 ^ 31 ->
  SessionSystem.spectator_got_prefix outs opsS ->
  exists t g gs, sp_hrun (sp_start n mfb cs) opsS = Ok t /\
    exec_outs w (game0 w) outs = Some g /\ QSg sparse w d p gs /\
    let del := sp_delivered (sp_t_calls t) in
    (Z.of_nat (length del) <= ps_next_spec p) /\
    forall k, (k < length del)%nat ->
      map fst (nth k del []) = map (fun gh : ghost => hval (fst gh) (Z.of_nat k)) gs /\
      (Z.of_nat k <= s_last_confirmed (ps_sync p) -> Z.of_nat k < s_current (ps_sync p) ->
       forall h hist low, nth_error gs h = Some (hist, low) ->
         nth h (map fst (nth k del [])) 0 = gvalL (g_hist g) (Z.of_nat k) h).
Proof. exact SessionSystem.spectator_replays_host. Qed.

(* non-vacuity: the host run of C06_host_demo broadcasts frames 0 and 1 as [1; 7]; a spectator that has received the
   first of them and called advance_frame twice satisfies the link contract and was handed [1; 7] once *)
Definition c06_sys_spec : list sp_hop :=
  [sp_HSync; sp_HFrame [(1, [sp_mkcs false 0; sp_mkcs false 0]); (7, [sp_mkcs false 0; sp_mkcs false 0])]; sp_HAdvance; sp_HAdvance].
Example C06_system_demo :
  exists p outs, srun_in (fun x => x) (session_start 2 2 false 0 [KLocal; KRemote 0] [[1]] 1)
      [SLocal 0 1; SAdvance; SLocal 0 1; SAdvance; SRemote 1 0 7; SRemote 1 1 7; SLocal 0 2; SAdvance] = Ok (p, outs) /\
    sp_wf 2 c06_sys_spec /\ SessionSystem.spectator_got_prefix outs c06_sys_spec /\
    map (fun o => match o with sp_Delivered l => map (map fst) l | sp_Failed _ => [] end)
        (sp_outcomes (sp_hrun (sp_start 2 10 3) c06_sys_spec)) = [ [[1; 7]]; [] ].
Proof.
  eexists. eexists. split; [vm_compute; reflexivity|]. split; [|split; vm_compute; reflexivity].
  repeat constructor.
Qed.
