(* Lockstep mode (max_prediction = 0).  A session none of whose queues was ever read through `input` (LKx) has
   predicted nothing: every AdvanceFrame request carries the inputs held for its frame, all Confirmed, and nothing
   is saved or loaded.  The run theorems of SessionTimeline.v (section Generic) are instantiated with the cells
   invariant CIl: JI at window 0 together with LKx and the session's own QSg and TI. *)
From GGRS Require Import Base Consts Queue QueueProofs QueueTheorems Sync P2P Session SessionProofs SessionProgress SessionTimeline.
From GGRS Require Import LiaSetup.
Open Scope Z_scope.

Definition never_read (q : queue) : Prop :=
  q_first_incorrect q = NULL /\ pi_frame (q_pred q) = NULL /\ q_last_requested q = NULL.
Definition LKx (p : p2p) : Prop :=
  Forall never_read (s_queues (ps_sync p)) /\ s_last_confirmed (ps_sync p) <= s_current (ps_sync p) - 1.

(* of the fields of QI only qi_p4 and qi_req mention the current frame *)
Lemma qi_shift : forall c c' L q hist low, QI c L q hist low -> never_read q -> QI c' L q hist low.
Proof.
  intros c c' L q hist low [I P1 P2 P4 Rq Lw Cf] (Hf & _ & Hr).
  constructor; [exact I|exact P1|exact P2| |left; exact Hr|exact Lw|exact Cf].
  intros X. contradiction.
Qed.

Lemma QsI_shift : forall c c' L qs gs,
  QsI c L qs gs -> Forall never_read qs ->
  QsI c' L qs gs.
Proof.
  intros c c' L qs gs H. induction H as [|q g qs gs Hq HQ IH]; intros HF; [constructor|].
  inversion HF as [|? ? Hn HF']; subst. constructor; [exact (qi_shift _ c' _ _ _ _ Hq Hn)|apply IH; exact HF'].
Qed.

Lemma LKx_clean : forall p, LKx p -> all_clean (s_queues (ps_sync p)).
Proof. intros p (H & _). eapply Forall_impl; [|exact H]. intros q (A & _). exact A. Qed.

Lemma never_read_discard : forall q f, never_read q -> never_read (discard_confirmed_frames q f).
Proof.
  intros q f H. unfold discard_confirmed_frames.
  destruct (_ <=? _); [exact H|]. destruct (_ <=? _); exact H.
Qed.

Lemma never_read_confirm : forall s f sp s', set_last_confirmed_frame s f sp = Ok s' ->
  Forall never_read (s_queues s) -> Forall never_read (s_queues s').
Proof.
  intros s f sp s' E H. apply set_last_confirmed_frame_ok in E. destruct E as (_ & ->).
  unfold confirmed_at. cbn [s_queues]. destruct (0 <? _); [|exact H].
  apply Forall_map. eapply Forall_impl; [|exact H]. intros q. apply never_read_discard.
Qed.

(* registering the local inputs reads nothing *)
Lemma never_read_grows : forall c qs gs qs' gs', grows_all c qs gs qs' gs' -> length qs' = length gs' ->
  Forall never_read qs -> Forall never_read qs'.
Proof.
  intros c qs gs qs' gs' Hg Hl H. apply Forall_forall. intros q' Hin. apply In_nth_error in Hin. destruct Hin as (h & Hh).
  destruct (nth_error_some_len gs' qs' h q' (eq_sym Hl) Hh) as (gh' & Hg').
  destruct (Hg h q' gh' Hh Hg') as (q & gh & Hq & _ & (F & (P & R) & _)).
  rewrite Forall_forall in H. destruct (H q (nth_error_In _ _ Hq)) as (A & B & C).
  split; [congruence|]. split; [rewrite P; exact B|congruence].
Qed.

Lemma QLEN_small : QLEN < I32MAX.
Proof. apply Z.ltb_lt. vm_compute. reflexivity. Qed.

Lemma status_bound_after_register : forall d (st st4 : list cstat) (gs gs4 : list ghost) pend touched,
  0 <= d -> d + 4 <= QLEN ->
  Forall2 (fun s g => cs_last s = hlen (fst g) - 1) st gs ->
  Forall2 (fun s g => cs_last s = hlen (fst g) - 1) st4 gs4 ->
  hist_step d pend touched gs gs4 ->
  Forall (fun c => cs_last c + 1 < I32MAX) st -> Forall (fun c => cs_last c < I32MAX) st4.
Proof.
  intros d st st4 gs gs4 pend touched Hd Hcap HL HL4 Hh Hb.
  apply Forall_forall. intros s4 Hin. apply In_nth_error in Hin. destruct Hin as (h & Hs4).
  destruct (nth_error_some_len gs4 st4 h s4 (eq_sym (Forall2_len _ _ _ HL4)) Hs4) as (g4 & Hg4).
  pose proof (Forall2_nth _ _ _ _ _ _ HL4 Hs4 Hg4) as R4. cbv beta in R4.
  destruct (Hh h g4 Hg4) as (g0 & Hg0 & Hcase).
  destruct (nth_error_some_len st gs h g0 (Forall2_len _ _ _ HL) Hg0) as (s0 & Hs0).
  pose proof (Forall2_nth _ _ _ _ _ _ HL Hs0 Hg0) as R0. cbv beta in R0.
  rewrite Forall_forall in Hb. pose proof (Hb s0 (nth_error_In _ _ Hs0)) as B0.
  pose proof QLEN_small as HQs.
  destruct Hcase as [Hsame|(_ & pi & k & _ & Hext & Hk)].
  - rewrite R4, Hsame. lia.
  - rewrite R4, Hext, hlen_fill. destruct Hk as [(Hnil & Hkd)|Hk0]; subst k.
    + rewrite Hnil. unfold hlen, I32MAX in *. cbn [length]. lia.
    + lia.
Qed.

Section Lockstep.
Variable predict : Z -> Z.
Hypothesis predict_idem : forall x, predict (predict x) = predict x.
Hypothesis predict_zero : predict 0 = 0.

Notation TI := (TI predict).
Notation truthful_lt := (truthful_lt predict).
Notation emitted := (emitted predict).

Definition all_confirmed (R : list request) : Prop :=
  forall r, In r R -> exists ins, r = RAdvance ins /\ Forall (fun i : Z * istatus => snd i = Confirmed) ins.

Lemma lockstep_frame : forall d p gs G cf o,
  QSg false 0 d p gs -> Forall never_read (s_queues (ps_sync p)) ->
  (forall h, In h (local_handles p) -> Done (s_current (ps_sync p)) d (s_queues (ps_sync p)) gs h) ->
  TI p gs G -> Forall (fun g : ghost => cf <= hlen (fst g) - 1) gs ->
  exists s2 pend o2 R,
    lockstep_simulate p cf o = Ok (with_pending (with_sync p s2) pend, o2) /\
    o_requests o2 = o_requests o ++ R /\ same_sends o o2 /\
    s_queues s2 = s_queues (ps_sync p) /\ s_last_confirmed s2 = s_last_confirmed (ps_sync p) /\
    s_maxpred s2 = s_maxpred (ps_sync p) /\
    (s_current s2 = s_current (ps_sync p) /\ cf < s_current (ps_sync p) \/
     s_current s2 = s_current (ps_sync p) + 1 /\ s_current (ps_sync p) <= cf) /\
    (forall h pi, assoc_get pend h = Some pi -> pi_frame pi = s_current s2) /\
    (forall h k q gh, nth_error (ps_kinds p) h = Some k -> nth_error (s_queues s2) h = Some q ->
       nth_error gs h = Some gh -> KI (s_current s2) d k q (fst gh)) /\
    emitted (s_current s2) gs G R (s_queues s2) /\ all_confirmed R.
Proof.
  intros d p gs G cf o HQS HLK Hdone (HG & HGI & HPN) Hcfg.
  pose proof (qs_qs _ _ _ _ HQS) as HQ. pose proof (qs_kinds _ _ _ _ HQS) as Hkinds.
  pose proof (QsI_length _ _ _ _ HQ) as Hlq. destruct (qs_n _ _ _ _ HQS) as (_ & _ & _ & Hn4).
  destruct (qs_frames _ _ _ _ HQS) as (HfL & Hfc & _).
  unfold lockstep_simulate.
  set (c := s_current (ps_sync p)) in *. set (L := s_last_confirmed (ps_sync p)) in *.
  destruct (Z.leb_spec c cf) as [Hadv|Hstall].
  2:{ exists (ps_sync p), (ps_pending p), o, []. rewrite app_nil_r.
      split; [destruct p; reflexivity|]. split; [reflexivity|]. split; [apply same_sends_refl|].
      split; [reflexivity|]. split; [reflexivity|]. split; [reflexivity|]. split; [left; split; [reflexivity|exact Hstall]|].
      split; [exact (qs_pending _ _ _ _ HQS)|]. split; [exact Hkinds|]. split; [apply emitted_nil; assumption|intros r []]. }
  assert (Hrange : Forall (fun g : ghost => snd g <= c < hlen (fst g)) gs).
  { apply Forall_forall. intros g0 Hg0. rewrite Forall_forall in Hcfg. pose proof (Hcfg g0 Hg0).
    apply In_nth_error in Hg0. destruct Hg0 as (h & Hh).
    destruct (QsI_nth _ _ _ _ h g0 HQ Hh) as (q0 & _ & Hqi). destruct (qi_low _ _ _ _ _ Hqi) as (Lw & _). lia. }
  unfold confirmed_inputs.
  rewrite (confirmed_inputs_held (ps_status p) (s_queues (ps_sync p)) gs c L c HQ (qs_conn _ _ _ _ HQS) ltac:(lia) Hrange). cbn [res_bind].
  set (ins := map (fun pi => if pi_frame pi =? NULL then (pi_val pi, Disconnected) else (pi_val pi, Confirmed)) (held_at gs c)).
  assert (Hins : ins = map (fun g : ghost => (hval (fst g) c, Confirmed)) gs).
  { subst ins. unfold held_at. rewrite map_map. apply map_ext. intros g0. cbn [pi_frame pi_val].
    assert ((c =? NULL) = false) as -> by (unfold NULL; lia). reflexivity. }
  exists (advance_frame (ps_sync p)), [], (add_req o (RAdvance ins)), [RAdvance ins].
  cbn [advance_frame with_current s_current s_queues s_last_confirmed s_maxpred]. fold c.
  split; [reflexivity|]. split; [reflexivity|]. split; [split; reflexivity|].
  split; [reflexivity|]. split; [reflexivity|]. split; [reflexivity|]. split; [right; split; [reflexivity|exact Hadv]|].
  split; [intros h pi X; discriminate X|]. split; [|split].
  - (* a local player's input for the frame after this one is not registered yet *)
    intros h k q gh A B C. pose proof (Hkinds h k q gh A B C) as HK.
    destruct k as [|e|e]; cbn [KI] in HK |- *; [|exact HK|exact HK].
    destruct HK as (Hdel & Hpn & _).
    assert (Hin : In (Z.of_nat h) (local_handles p)).
    { apply (local_handles_spec p _ (QS_nplayers _ _ _ _ _ HQS)). rewrite Nat2Z.id. split; [|exact A].
      assert (nth_error (ps_kinds p) h <> None) as X by congruence. apply nth_error_Some in X.
      rewrite (QS_nplayers _ _ _ _ _ HQS). lia. }
    pose proof (Hdone _ Hin) as Hdn. unfold Done in Hdn. rewrite Nat2Z.id in Hdn.
    destruct (Hdn q gh B C) as (Hh & Hu).
    split; [exact Hdel|]. split; [exact Hpn|]. right. left. split; [lia|]. split; [lia|lia].
  - unfold SessionTimeline.emitted. cbn [replay_hist adv_frames]. rewrite Forall_forall in Hrange, HLK.
    split; [|split; [rewrite glen_app; lia|split]].
    + intros h q gh B C. pose proof (HGI h q gh B C) as [Gk Gp Gv].
      destruct (HLK q (nth_error_In _ _ B)) as (A1 & A2 & _). pose proof (Hrange gh (nth_error_In _ _ C)) as Hr.
      constructor.
      * intros f Hf Hfl _. destruct (Z.eq_dec f c) as [->|Hne].
        -- rewrite <- HG at 1. rewrite gvalL_app_new, Hins. unfold fval.
           rewrite (nth_error_nth (map (fun g : ghost => (hval (fst g) c, Confirmed)) gs) h (0, Confirmed) (map_nth_error _ _ _ C)). reflexivity.
        -- rewrite gvalL_app_old by lia. apply Gk; [lia|exact Hfl|left; exact A1].
      * intros _ f Hf Hfl. lia.
      * intros X. congruence.
    + intros h q gh B C _. pose proof (Hrange gh (nth_error_In _ _ C)). lia.
    + constructor; [|constructor]. unfold glen in HG. rewrite HG. split; [cbn [fst]; lia|].
      unfold truthful. cbn [fst snd]. rewrite Hins.
      apply Forall2_pointwise; [rewrite map_length; reflexivity|]. intros h gh i C Ei.
      rewrite (map_nth_error _ _ _ C) in Ei. injection Ei as <-.
      left. cbn [fst snd]. pose proof (Hrange gh (nth_error_In _ _ C)). split; [reflexivity|]. split; [lia|reflexivity].
  - intros r0 [<-|[]]. exists ins. split; [reflexivity|]. rewrite Hins. apply Forall_forall. intros i Hi.
    apply in_map_iff in Hi. destruct Hi as (g0 & <- & _). reflexivity.
Qed.

(* advance_frame in lockstep mode: register the local inputs, simulate the current frame if every input for it is
   held, hand the confirmed frames to the spectators, confirm *)
Lemma lockstep_advance : forall p gs d G,
  QSg false 0 d p gs -> LKx p -> Forall (fun c => cs_last c + 1 < I32MAX) (ps_status p) -> TI p gs G ->
  exists p' o r gs', advance predict p = Ok (p', o, r) /\ QSg false 0 d p' gs' /\ LKx p' /\
    TI p' gs' (replay_hist G (o_requests o)) /\
    hist_step d (ps_pending p) (local_handles p) gs gs' /\ ps_kinds p' = ps_kinds p /\ spec_step p gs' o p' /\
    Forall (truthful_lt (s_current (ps_sync p')) gs') (adv_frames G (o_requests o)) /\
    all_confirmed (o_requests o) /\ sends_adv p gs gs' p' o.
Proof using predict_idem.
  intros p gs d G HQS HLK Hbnd (HG & HGI & HPN).
  pose proof HLK as (HLKq & HLKl).
  destruct (qs_w _ _ _ _ HQS) as (_ & Hw2 & _). destruct (qs_mode _ _ _ _ HQS) as (Hrun & _).
  destruct (qs_d _ _ _ _ HQS) as (Hd0 & Hcap).
  destruct (all_pending p) eqn:Hpend.
  2:{ exists p, out0, AInvalidRequest, gs.
      split; [exact (advance_not_pending predict p Hrun Hpend)|]. split; [exact HQS|]. split; [exact HLK|].
      split; [split; [exact HG|split; [exact HGI|exact HPN]]|]. split; [apply hist_step_refl|]. split; [reflexivity|].
      split; [apply spec_step_none; [exact (qs_spec _ _ _ _ HQS)|reflexivity..]|].
      split; [constructor|split; [intros r0 []|intros HO; split; [exact HO|constructor]]]. }
  destruct (register_local_progress false 0 d p gs out0 HQS (LKx_clean _ HLK) (proj1 (all_pending_spec p) Hpend))
    as (p5 & o5 & gs4 & E5 & R5 & Hor5 & Hos5 & Hout5).
  pose proof (rg_qs R5) as HQS5. pose proof (rg_rest R5) as Hrest5.
  pose proof (rg_cur R5) as Hc5. pose proof (rg_conf R5) as HL5.
  pose proof (rg_grows R5) as Hgrow5. pose proof (rg_hist R5) as Hhist5.
  set (c := s_current (ps_sync p)) in *. set (L := s_last_confirmed (ps_sync p)) in *.
  pose proof (local_handles_rest _ _ Hrest5) as Hlh5.
  pose proof (p_rest_kinds _ _ Hrest5) as Hkk5. pose proof (p_rest_spectators _ _ Hrest5) as Hss5.
  pose proof (p_rest_next_spec _ _ Hrest5) as Hns5.
  pose proof (QsI_length _ _ _ _ (qs_qs _ _ _ _ HQS5)) as Hlq5.
  pose proof (never_read_grows _ _ _ _ _ Hgrow5 Hlq5 HLKq) as HLK5.
  (* every history grew by at most d + 1 entries, so the connection statuses stay below I32MAX *)
  pose proof (status_bound_after_register d _ _ gs gs4 _ _ Hd0 ltac:(lia) (qs_last _ _ _ _ HQS) (qs_last _ _ _ _ HQS5) Hhist5 Hbnd) as Hbnd5.
  destruct (confirmed_frame_bounds _ _ _ p5 gs4 HQS5 Hbnd5) as (cf & Ecf & HLcf & Hcfg & _).
  assert (HTI5 : TI p5 gs4 G).
  { unfold SessionTimeline.TI. rewrite Hc5. split; [exact HG|]. split; [exact (GIl_grows predict _ _ _ _ _ _ Hgrow5 HGI)|exact (PNl_grows _ _ _ _ _ Hgrow5 HPN)]. }
  destruct (lockstep_frame d p5 gs4 G cf o5 HQS5 HLK5) as (s2 & pend & o2 & R & E2 & Ho2 & (Hrs2 & Hss2) & Hq2 & HL2 & Hmp2 & Hc2 & Hpe2 & Hk2 & HE2 & HAC2).
  { intros h Hin. rewrite Hc5. apply (rg_done R5). rewrite <- Hlh5. exact Hin. }
  { exact HTI5. }
  { exact Hcfg. }
  rewrite Hc5 in Hc2. fold c in Hc2.
  set (c2 := s_current s2) in *. set (bk := Z.min cf (c2 - 1)).
  destruct (qs_frames _ _ _ _ HQS5) as ((HfL5 & _) & Hfc5 & Hfw5). rewrite ?Hc5, ?HL5 in HfL5, Hfc5, Hfw5. fold c L in HfL5, Hfc5, Hfw5.
  destruct (qs_mode _ _ _ _ HQS5) as (_ & Hsp5 & _).
  destruct (broadcast_confirm_progress predict false 0 d p5 gs4 s2 pend bk o2 HQS5)
    as (p3 & o3 & s3 & gs3 & C).
  { rewrite Hmp2. exact (proj2 (proj2 (qs_w _ _ _ _ HQS5))). }
  { exact HL2. }
  { (* queues that were never read satisfy their invariant at whatever current frame *)
    rewrite Hq2, HL2. exact (QsI_shift _ c2 _ _ _ (qs_qs _ _ _ _ HQS5) HLK5). }
  { rewrite Hq2. exact (rg_clean R5). }
  { exact Hk2. }
  { exact Hpe2. }
  { eapply Forall_impl; [|exact Hcfg]. cbv beta. intros a Ha. subst bk. lia. }
  { rewrite HL2, HL5. fold L c2. subst bk. lia. }
  { fold c2. subst bk. lia. }
  { intros _. fold c2. subst bk. lia. }
  pose proof (cf_state C) as Hp3. pose proof (cf_hist C) as Hmap3. pose proof (cf_confirm C) as E3.
  pose proof (cf_cur C) as Hc3. pose proof (cf_last C) as HL3. cbn [with_pending with_sync ps_sync] in E3, Hc3, HL3.
  fold c2 in Hc3, HL3. replace (Z.min bk c2) with bk in HL3 by (subst bk; lia).
  destruct HE2 as (HGI2 & HG2 & HPN2 & HTR2).
  destruct (timeline_same_flags predict c2 (replay_hist G R) _ _ gs4 gs3 (cf_queues C) Hmap3 HGI2 HPN2) as (HGI3 & HPN3).
  assert (HR : o_requests o3 = R) by (rewrite (cf_reqs C), Ho2, Hor5; reflexivity).
  exists (with_sync p3 s3), o3, AOk, gs3. rewrite HR. split.
  { apply (advance_ok predict p p out0 p); [exact Hrun|exact Hpend|exact (first_save_lockstep p Hw2)| |].
    - exact (update_disconnects_noop p (qs_conn _ _ _ _ HQS) (qs_gossip _ _ _ _ HQS)).
    - rewrite Hw2. rewrite <- Hsp5 in E3. pose proof (cf_send C) as Es3. rewrite Hp3 in Es3 |- *.
      exact (advance_lockstep_frame_ok p out0 p5 o5 cf _ o2 cf _ o3 s3 E5 Ecf E2 Ecf Es3 E3). }
  split; [exact (cf_qs C)|].
  split; [split; [rewrite <- Hq2 in HLK5; exact (never_read_confirm _ _ _ _ E3 HLK5)|cbn [with_sync ps_sync]; rewrite HL3, Hc3; subst bk; lia]|].
  split; [unfold SessionTimeline.TI; cbn [with_sync ps_sync]; rewrite Hc3; split; [exact HG2|split; [exact HGI3|exact HPN3]]|].
  split; [exact (hist_step_map_fst _ _ _ _ _ _ Hhist5 Hmap3)|].
  split; [rewrite Hp3; exact Hkk5|].
  split.
  { (* what was handed to the spectators, in terms of the histories after the call *)
    assert (X : spec_step p5 gs3 o3 (with_sync p3 s3)).
    { apply (spec_sent_step p5 gs4 gs3 bk); [exact (qs_spec _ _ _ _ HQS5)| |exact (map_fst_grows_gs _ _ Hmap3)|rewrite Hp3; reflexivity| |rewrite Hp3; reflexivity].
      - eapply Forall_impl; [|exact Hcfg]. cbv beta. intros a Ha. subst bk. lia.
      - rewrite (cf_ssends C), Hss2, Hos5. reflexivity. }
    unfold spec_step in *. rewrite Hss5, Hns5 in X. exact X. }
  split; [cbn [with_sync ps_sync]; rewrite Hc3; eapply Forall_impl; [|exact HTR2]; intros fi Ht; exact (truthful_lt_map_fst predict _ _ _ _ Hmap3 Ht)|].
  split; [exact HAC2|].
  intros (HO & _). destruct (Hout5 HO) as (HOB5 & rounds & Q1 & Q2). split.
  - apply (OIb_same_local p5 _ gs4 gs3 HOB5); try (rewrite Hp3; reflexivity); [intros X; rewrite Hp3 in X; exact X|].
    intros h _. apply map_fst_opt. exact Hmap3.
  - rewrite (cf_rsends C), Hrs2, Q1. exact (rounds_ok_ext _ gs4 gs3 _ Hmap3 Q2).
Qed.

(* the cells invariant of lockstep mode, as the generic run theorems want it; it carries its own witness of the
   queue and timeline invariants (the generic step hypothesis knows nothing of the timeline) *)
Definition CIl (w : Z) (p : p2p) (g : game) : Prop :=
  w = 0 /\ JI w p g /\ LKx p /\ exists gs d, QSg false 0 d p gs /\ TI p gs (g_hist g).

Lemma ev_input_spectators : forall p pl f v p', ev_input p pl f v = Ok p' -> ps_spectators p' = ps_spectators p.
Proof. intros p pl f v p' H. destruct (ev_input_quiet _ _ _ _ _ H) as (_ & _ & _ & X & _). exact X. Qed.

Lemma lockstep_CI_step : forall p gs g w d o,
  QSg false w d p gs -> CIl w p g -> op_ok p o = true ->
  exists s g', sstep predict p o = Ok s /\ exec w g (o_requests (sr_out s)) = Some g' /\ CIl w (sr_state s) g'.
Proof.
  intros p gs g w d o _ (-> & HJI & HLK & gs0 & d0 & HQS & HTI) Hok.
  assert (Hgoal : exists s, sstep predict p o = Ok s /\ LKx (sr_state s) /\
            exists gs', QSg false 0 d0 (sr_state s) gs' /\ TI (sr_state s) gs' (replay_hist (g_hist g) (o_requests (sr_out s)))).
  { destruct (sop_advance_dec o) as [->|Hadv].
    { destruct (lockstep_advance p gs0 d0 (g_hist g) HQS HLK (op_ok_advance _ Hok) HTI) as (p' & o & r & gs' & E & HQ' & HLK' & HT' & _).
      cbn [sstep]. rewrite E. cbn [res_bind]. exists (mksr p' o r). split; [reflexivity|]. cbn [sr_state sr_out].
      split; [exact HLK'|]. exists gs'. split; [exact HQ'|exact HT']. }
    destruct (other_ops_progress predict _ 0 d0 p gs0 o HQS Hok Hadv) as (s & gs' & Es & HQ' & Hreq & Hsync).
    exists s. split; [exact Es|]. rewrite Hreq. cbn [replay_hist]. destruct HLK as (HLKq & HLKl).
    destruct Hsync as [(-> & Hs)|(pl & v & q & hist & low & q' & Eq & Eg & -> & Hqs' & F' & P' & R' & Hc' & HL' & _)].
    - split; [unfold LKx; rewrite Hs; split; assumption|]. exists gs0. split; [exact HQ'|].
      unfold SessionTimeline.TI in *. rewrite Hs. exact HTI.
    - (* an arrived input is stored without reading the queue *)
      split; [|exists (updz gs0 (Z.to_nat pl) (hist ++ [v], low)); split; [exact HQ'|]].
      + split; [|rewrite HL', Hc'; exact HLKl].
        rewrite Hqs'. pose proof HLKq as HLKq'. rewrite Forall_forall in HLKq'. destruct (HLKq' q (nth_error_In _ _ Eq)) as (A & B & C).
        apply Forall_updz; [exact HLKq|].
        split; [rewrite F', (fi_after_idle _ _ _ B); exact A|].
        split; [rewrite P', (pred_after_idle _ _ _ B); exact B|rewrite R'; exact C].
      + exact (TI_remote_add predict predict_idem predict_zero false 0 d0 p gs0 (g_hist g) (sr_state s) _ q hist low q' v HQS HTI Eq Eg Hqs' Hc' F' P'). }
  destruct Hgoal as (s & Es & HLK' & gs' & HQ' & HT').
  destruct (sstep_exec predict p o s g 0 Es HJI) as (g' & Ex & HJ' & _).
  exists s, g'. split; [exact Es|]. split; [exact Ex|]. split; [reflexivity|]. split; [exact HJ'|]. split; [exact HLK'|].
  exists gs', d0. split; [exact HQ'|]. rewrite (exec_hist _ _ _ _ Ex). exact HT'.
Qed.

Lemma lockstep_CI_adv : forall p gs g w d p' o r G,
  advance predict p = Ok (p', o, r) ->
  QSg false w d p gs -> CIl w p g -> Forall (fun c => cs_last c < I32MAX) (ps_status p) ->
  Forall (fun c => cs_last c + 1 < I32MAX) (ps_status p) -> TI p gs G ->
  exists gs', QSg false w d p' gs' /\ TI p' gs' (replay_hist G (o_requests o)) /\
    hist_step d (ps_pending p) (local_handles p) gs gs' /\ ps_kinds p' = ps_kinds p /\ spec_step p gs' o p' /\
    Forall (truthful_lt (s_current (ps_sync p')) gs') (adv_frames G (o_requests o)) /\ sends_adv p gs gs' p' o.
Proof.
  intros p gs g w d p' o r G E HQS (-> & _ & HLK & _) _ Hbnd1 HTI.
  destruct (lockstep_advance p gs d G HQS HLK Hbnd1 HTI) as (p1 & o1 & r1 & gs' & E1 & HQ' & _ & HT' & Hh & Hk & Hss & HTR & _ & Hsd).
  rewrite E in E1. injection E1 as <- <- <-.
  exists gs'. split; [exact HQ'|]. split; [exact HT'|]. split; [exact Hh|]. split; [exact Hk|]. split; [exact Hss|split; [exact HTR|exact Hsd]].
Qed.

Lemma lockstep_CI_frame : forall w p g, CIl w p g -> gframe g = s_current (ps_sync p).
Proof. intros w p g (_ & HJ & _). exact (ji_frame _ _ _ HJ). Qed.

Definition lockstep_run_timeline :=
  run_timeline_g predict predict_idem predict_zero false CIl lockstep_CI_step lockstep_CI_adv lockstep_CI_frame.
Definition lockstep_requests_truthful_step :=
  requests_truthful_step_g predict predict_idem predict_zero false CIl lockstep_CI_step lockstep_CI_adv lockstep_CI_frame.

(* lockstep never predicts, never saves, never loads *)
Lemma lockstep_requests : forall p gs g d o s,
  QSg false 0 d p gs -> CIl 0 p g -> TI p gs (g_hist g) -> op_ok p o = true -> sstep predict p o = Ok s ->
  all_confirmed (o_requests (sr_out s)).
Proof using predict_idem.
  intros p gs g d o s HQS (_ & _ & HLK & _) HTI Hok Es.
  destruct (sop_advance_dec o) as [->|Hadv].
  - destruct (lockstep_advance p gs d (g_hist g) HQS HLK (op_ok_advance _ Hok) HTI) as (p1 & o1 & r1 & gs1 & E1 & _ & _ & _ & _ & _ & _ & _ & HAC & _).
    cbn [sstep] in Es. rewrite E1 in Es. injection Es as <-. exact HAC.
  - destruct (other_ops_progress predict _ 0 d p gs o HQS Hok Hadv) as (s' & _ & Es' & _ & Hreq & _).
    rewrite Es in Es'. injection Es' as <-. rewrite Hreq. intros r [].
Qed.

Lemma steps_all_confirmed : forall d p gs g ops outs p' gs' g',
  steps predict false CIl 0 d p gs g ops outs p' gs' g' ->
  Forall (fun o : pout * apires => all_confirmed (o_requests (fst o))) outs.
Proof using predict_idem.
  intros d p gs g ops outs p' gs' g' H.
  induction H as [p gs g|p gs g o s gs1 g1 ops outs p' gs' g' Hs _ IH]; constructor; [|exact IH].
  exact (lockstep_requests p gs g d o s (so_pre Hs) (so_ci_pre Hs) (so_ti_pre Hs) (so_ok Hs) (so_step Hs)).
Qed.

Theorem lockstep_run : forall ops p gs g d,
  QSg false 0 d p gs -> CIl 0 p g -> TI p gs (g_hist g) ->
  srun_in predict p ops = Err \/
  exists p' outs gs' g', srun_in predict p ops = Ok (p', outs) /\ srun predict p ops = Ok (p', outs) /\
    exec_outs 0 g outs = Some g' /\ QSg false 0 d p' gs' /\ CIl 0 p' g' /\ TI p' gs' (g_hist g') /\
    Forall (fun o : pout * apires => all_confirmed (o_requests (fst o))) outs.
Proof.
  intros ops p gs g d HQS HCI HTI.
  destruct (run_steps_g predict predict_idem predict_zero false CIl lockstep_CI_step lockstep_CI_adv lockstep_CI_frame ops p gs g 0 d HQS HCI HTI)
    as [E|(p' & outs & gs' & g' & E1 & E2 & Hst)]; [left; exact E|right].
  destruct (steps_end predict false CIl _ _ _ _ _ _ _ _ _ _ Hst HQS HCI HTI) as (Ex & HQ' & HC' & HT').
  exists p', outs, gs', g'. split; [exact E1|]. split; [exact E2|]. split; [exact Ex|]. split; [exact HQ'|]. split; [exact HC'|].
  split; [exact HT'|exact (steps_all_confirmed _ _ _ _ _ _ _ _ _ Hst)].
Qed.

(* in lockstep every simulated frame - not only every confirmed one - was simulated with the inputs held for it *)
Lemma lockstep_known : forall d p gs G h hist low f,
  QSg false 0 d p gs -> LKx p -> TI p gs G -> nth_error gs h = Some (hist, low) -> 0 <= f < s_current (ps_sync p) ->
  f < hlen hist /\ gvalL G f h = hval hist f.
Proof.
  (* lia takes every arithmetic hypothesis of the context into its proof term, and so into the statement *)
  clear predict_idem predict_zero.
  intros d p gs G h hist low f HQS (HLq & _) (_ & HGI & HPN) Eg Hf.
  pose proof (qs_qs _ _ _ _ HQS) as HQ.
  destruct (nth_error_some_len (s_queues (ps_sync p)) gs h (hist, low) (QsI_length _ _ _ _ HQ) Eg) as (q & Eq).
  rewrite Forall_forall in HLq. destruct (HLq q (nth_error_In _ _ Eq)) as (A & B & _).
  pose proof (HPN h q (hist, low) Eq Eg B) as Hreach. cbn [fst] in Hreach.
  split; [lia|]. apply (gq_known _ _ _ _ _ _ (HGI h q (hist, low) Eq Eg)); [lia|cbn [fst]; lia|left; exact A].
Qed.

End Lockstep.

Lemma LKx_start : forall n d kinds eps nspec, LKx (session_start n 0 false d kinds eps nspec).
Proof.
  intros n d kinds eps nspec. unfold LKx, session_start, p2p_new, sync_new.
  cbn [with_running with_queues ps_sync s_queues s_last_confirmed s_current].
  split; [|unfold NULL; lia].
  apply Forall_forall. intros q Hq. apply in_map_iff in Hq. destruct Hq as ([h q0] & <- & Hin).
  apply in_combine_r in Hin. apply repeat_spec in Hin. subst q0.
  destruct (nth_error kinds (Z.to_nat h)) as [[| |]|]; repeat split.
Qed.

Lemma QS_start_lockstep : forall n d kinds eps nspec,
  0 <= d -> d + 4 <= QLEN -> 0 < n -> Z.of_nat (length kinds) = n -> players_only kinds ->
  QSg false 0 d (session_start n 0 false d kinds eps nspec) (repeat ([], 0) (Z.to_nat n)).
Proof.
  intros n d kinds eps nspec Hd Hcap Hn Hlen Hpl.
  apply QS_start_any; try assumption; [lia|reflexivity|lia].
Qed.

Lemma lockstep_start_ok : forall (predict : Z -> Z) n d kinds eps nspec,
  0 <= d -> d + 4 <= QLEN -> 0 < n -> Z.of_nat (length kinds) = n -> players_only kinds ->
  start_ok false (CIl predict) n 0 d kinds eps nspec.
Proof.
  intros predict n d kinds eps nspec Hd Hcap Hn Hlen Hpl.
  pose proof (QS_start_lockstep n d kinds eps nspec Hd Hcap Hn Hlen Hpl) as HQS0.
  split; [exact HQS0|]. split; [reflexivity|]. split; [apply JI_start; lia|]. split; [apply LKx_start|].
  exists (repeat ([], 0) (Z.to_nat n)), d. split; [exact HQS0|exact (TI_start_g predict false n 0 d kinds eps nspec)].
Qed.

(* lockstep: what the session sends for its local players is what it simulates for them, and what arrived for a
   remote player is what it simulates for that player *)
Theorem lockstep_sends_and_receipts :
  forall (predict : Z -> Z), (forall x, predict (predict x) = predict x) -> predict 0 = 0 ->
  forall ops n d kinds eps nspec p outs,
  0 <= d -> d + 4 <= QLEN -> 0 < n -> Z.of_nat (length kinds) = n -> players_only kinds ->
  srun_in predict (session_start n 0 false d kinds eps nspec) ops = Ok (p, outs) ->
  exists g gs, exec_outs 0 (game0 0) outs = Some g /\ QSg false 0 d p gs /\ gframe g = s_current (ps_sync p) /\
    (forall h hist low f, nth_error gs h = Some (hist, low) -> 0 <= f < s_current (ps_sync p) ->
       f < hlen hist /\ gvalL (g_hist g) f h = hval hist f) /\
    rounds_ok (local_handles p) gs (all_sends outs) /\
    (forall pl f v, In (SRemote pl f v) ops ->
      exists gh, nth_error gs (Z.to_nat pl) = Some gh /\ 0 <= f < hlen (fst gh) /\ hval (fst gh) f = v) /\
    (forall pl e gh f, 0 <= pl -> nth_error kinds (Z.to_nat pl) = Some (KRemote e) ->
      nth_error gs (Z.to_nat pl) = Some gh -> 0 <= f < hlen (fst gh) -> In (SRemote pl f (hval (fst gh) f)) ops) /\
    ps_kinds p = kinds /\ OB p gs /\ Forall (confirmed_ok gs) (all_adv_frames [] outs).
Proof.
  intros predict Hi Hz ops n d kinds eps nspec p outs Hd Hcap Hn Hlen Hpl H.
  destruct (sends_and_receipts_from_g predict Hi Hz false (CIl predict) (lockstep_CI_step predict Hi Hz) (lockstep_CI_adv predict Hi)
              (lockstep_CI_frame predict) ops n 0 d kinds eps nspec p outs (lockstep_start_ok predict n d kinds eps nspec Hd Hcap Hn Hlen Hpl) H)
    as (g & gs & Ex & HQS & HCI & HTI & Hrest).
  exists g, gs. split; [exact Ex|]. split; [exact HQS|]. split; [exact (lockstep_CI_frame predict _ _ _ HCI)|]. split; [|exact Hrest].
  destruct HCI as (_ & _ & HLK & _). intros h hist low f. exact (lockstep_known predict d p gs _ h hist low f HQS HLK HTI).
Qed.

(* the host half of C06 for a lockstep host: everything handed to the spectators is frame 0, 1, 2, ... each once,
   in order, with the inputs held for it; every frame up to the last confirmed frame has been sent *)
Theorem lockstep_host_broadcast :
  forall (predict : Z -> Z), (forall x, predict (predict x) = predict x) -> predict 0 = 0 ->
  forall ops n d kinds eps nspec p outs,
  0 <= d -> d + 4 <= QLEN -> 0 < n -> Z.of_nat (length kinds) = n -> players_only kinds -> (0 < nspec)%nat ->
  srun_in predict (session_start n 0 false d kinds eps nspec) ops = Ok (p, outs) ->
  exists gs, QSg false 0 d p gs /\
    all_spec_sends outs = map (fun f => (f, held_at gs f)) (zrange_from 0 (Z.to_nat (ps_next_spec p))) /\
    0 <= ps_next_spec p /\ s_last_confirmed (ps_sync p) + 1 <= ps_next_spec p /\
    Forall (fun g : ghost => ps_next_spec p <= hlen (fst g)) gs.
Proof.
  intros predict Hi Hz ops n d kinds eps nspec p outs Hd Hcap Hn Hlen Hpl Hns H.
  destruct (host_broadcast_from_g predict Hi Hz false (CIl predict) (lockstep_CI_step predict Hi Hz) (lockstep_CI_adv predict Hi)
              (lockstep_CI_frame predict) ops n 0 d kinds eps nspec p outs (lockstep_start_ok predict n d kinds eps nspec Hd Hcap Hn Hlen Hpl) Hns H)
    as (g & gs & _ & HQS & _ & _ & Hall & Hsok & Hne).
  exists gs. split; [exact HQS|]. split; [exact Hall|exact (Hsok Hne)].
Qed.

(* the same, together with the game (one ghost history for both statements) *)
Theorem lockstep_host_broadcast_and_game :
  forall (predict : Z -> Z), (forall x, predict (predict x) = predict x) -> predict 0 = 0 ->
  forall ops n d kinds eps nspec p outs,
  0 <= d -> d + 4 <= QLEN -> 0 < n -> Z.of_nat (length kinds) = n -> players_only kinds -> (0 < nspec)%nat ->
  srun_in predict (session_start n 0 false d kinds eps nspec) ops = Ok (p, outs) ->
  exists g gs, exec_outs 0 (game0 0) outs = Some g /\ QSg false 0 d p gs /\
    all_spec_sends outs = map (fun f => (f, held_at gs f)) (zrange_from 0 (Z.to_nat (ps_next_spec p))) /\
    0 <= ps_next_spec p /\ s_last_confirmed (ps_sync p) + 1 <= ps_next_spec p /\
    (forall h hist low f, nth_error gs h = Some (hist, low) ->
       0 <= f <= s_last_confirmed (ps_sync p) -> f < s_current (ps_sync p) ->
       f < hlen hist /\ gvalL (g_hist g) f h = hval hist f).
Proof.
  intros predict Hi Hz ops n d kinds eps nspec p outs Hd Hcap Hn Hlen Hpl Hns H.
  destruct (host_broadcast_from_g predict Hi Hz false (CIl predict) (lockstep_CI_step predict Hi Hz) (lockstep_CI_adv predict Hi)
              (lockstep_CI_frame predict) ops n 0 d kinds eps nspec p outs (lockstep_start_ok predict n d kinds eps nspec Hd Hcap Hn Hlen Hpl) Hns H)
    as (g & gs & Ex & HQS & _ & HTI & Hall & Hsok & Hne).
  destruct (Hsok Hne) as (S1 & S2 & _).
  exists g, gs. split; [exact Ex|]. split; [exact HQS|]. split; [exact Hall|]. split; [exact S1|]. split; [exact S2|].
  intros h hist low f. exact (TI_confirmed_known predict _ _ _ _ _ _ h hist low f HQS HTI).
Qed.
