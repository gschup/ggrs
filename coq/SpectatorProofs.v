(* Proofs about the SpectatorSession model (Spectator.v).  The idea: the session state is a function
   [sp_abs] of what has happened - the frames received, the statuses of the last one, the number of
   frames delivered - with slot i of the ring holding the newest received frame congruent to i.
   Receiving a frame, inputs_at_frame and advance_frame are then equations between such states
   (sp_feed_abs, sp_grab_abs, sp_advance_abs), every reachable trace has that form (sp_reach), and
   the statements of props/C06.v are read off. *)
From GGRS Require Import Base Consts Spectator.
From GGRS Require Import Queue QueueProofs Sync P2P ModelLists.
From GGRS Require Import LiaSetup.
Open Scope Z_scope.

Definition sp_hlen {A} (l : list A) : Z := Z.of_nat (length l).

Lemma sp_hlen_app : forall A (a b : list A), sp_hlen (a ++ b) = sp_hlen a + sp_hlen b.
Proof. intros. unfold sp_hlen. rewrite app_length. lia. Qed.

Lemma sp_upd_eq : @sp_upd = @updz.
Proof. reflexivity. Qed.

Lemma sp_upd_nth : forall A (l : list A) i j x d, (i < length l)%nat ->
  nth j (sp_upd l i x) d = if Nat.eqb i j then x else nth j l d.
Proof.
  induction l as [|y r IH]; intros [|i] [|j] x d H; cbn [length] in H; try reflexivity; try (exfalso; lia).
  cbn [sp_upd nth Nat.eqb]. apply IH. lia.
Qed.

Lemma sp_upd_upd : forall A (l : list A) i x y, sp_upd (sp_upd l i x) i y = sp_upd l i y.
Proof. induction l as [|z r IH]; intros [|i] x y; cbn [sp_upd]; auto. f_equal. apply IH. Qed.

Lemma sp_last_cons : forall A (l : list A) a d, last (a :: l) d = last l a.
Proof.
  induction l as [|b r IH]; intros; [reflexivity|].
  change (last (a :: b :: r) d) with (last (b :: r) d). rewrite !IH. reflexivity.
Qed.

Lemma sp_map_fst_combine : forall A B (a : list A) (b : list B), length a = length b -> map fst (combine a b) = a.
Proof.
  induction a as [|x r IH]; intros [|y s] H; cbn [length] in H; try reflexivity; try discriminate.
  cbn [combine map fst]. f_equal. apply IH. lia.
Qed.

Lemma sp_map_snd_combine : forall A B (a : list A) (b : list B), length a = length b -> map snd (combine a b) = b.
Proof.
  induction a as [|x r IH]; intros [|y s] H; cbn [length] in H; try reflexivity; try discriminate.
  cbn [combine map snd]. f_equal. apply IH. lia.
Qed.

Lemma sp_nth_map_seq : forall A (F : nat -> A) k i d, (i < k)%nat -> nth i (map F (seq 0 k)) d = F i.
Proof.
  intros A F k i d H. rewrite (nth_indep _ d (F O)) by (rewrite map_length, seq_length; exact H).
  rewrite map_nth, seq_nth by exact H. reflexivity.
Qed.

Lemma sp_size_pos : 0 < SPECTATOR_BUFFER_SIZE.
Proof. reflexivity. Qed.
Lemma sp_normal_speed_one : NORMAL_SPEED = 1.
Proof. reflexivity. Qed.

Lemma sp_slot_small : forall g, 0 <= g < 2 ^ 64 -> sp_slot g = Z.to_nat (g mod SPECTATOR_BUFFER_SIZE).
Proof. intros g H. unfold sp_slot. rewrite (Z.mod_small g) by lia. reflexivity. Qed.

Lemma sp_slot_lt : forall g, (sp_slot g < Z.to_nat SPECTATOR_BUFFER_SIZE)%nat.
Proof.
  intro g. unfold sp_slot.
  pose proof (Z.mod_pos_bound (g mod 2 ^ 64) SPECTATOR_BUFFER_SIZE sp_size_pos). lia.
Qed.

(* the newest frame <= last with the residue of f: the frame whose row the slot of f holds once
   frames 0 .. last have arrived (negative: none yet) *)
Definition sp_newest (last f : Z) : Z := last - (last - f) mod SPECTATOR_BUFFER_SIZE.

Lemma sp_newest_range : forall l f, l - SPECTATOR_BUFFER_SIZE < sp_newest l f <= l.
Proof. intros l f. unfold sp_newest. pose proof (Z.mod_pos_bound (l - f) _ sp_size_pos). lia. Qed.

Lemma sp_newest_mod : forall l f, sp_newest l f mod SPECTATOR_BUFFER_SIZE = f mod SPECTATOR_BUFFER_SIZE.
Proof. intros l f. unfold sp_newest. rewrite Zminus_mod_idemp_r. f_equal. lia. Qed.

Lemma sp_newest_unique : forall l f g, l - SPECTATOR_BUFFER_SIZE < g <= l ->
  g mod SPECTATOR_BUFFER_SIZE = f mod SPECTATOR_BUFFER_SIZE -> sp_newest l f = g.
Proof.
  intros l f g Hg E. pose proof (sp_newest_range l f).
  apply (mod_inj_near SPECTATOR_BUFFER_SIZE); [exact sp_size_pos|lia|]. rewrite sp_newest_mod, E. reflexivity.
Qed.

Lemma sp_newest_step : forall l f,
  sp_newest l f = if l mod SPECTATOR_BUFFER_SIZE =? f mod SPECTATOR_BUFFER_SIZE then l else sp_newest (l - 1) f.
Proof.
  intros l f. pose proof sp_size_pos as Hp. destruct (Z.eqb_spec (l mod SPECTATOR_BUFFER_SIZE) (f mod SPECTATOR_BUFFER_SIZE)) as [E|E].
  - apply sp_newest_unique; [lia|exact E].
  - pose proof (sp_newest_range (l - 1) f) as R. apply sp_newest_unique; [|apply sp_newest_mod].
    destruct (Z.eq_dec (sp_newest (l - 1) f) (l - SPECTATOR_BUFFER_SIZE)) as [X|X]; [|lia].
    contradict E. rewrite <- (sp_newest_mod (l - 1) f), X.
    replace (l - SPECTATOR_BUFFER_SIZE) with (l + (-1) * SPECTATOR_BUFFER_SIZE) by lia. symmetry. apply Z_mod_plus_full.
Qed.

Lemma sp_handle_input_ok : forall s pre p post g v st,
  sp_row s g = pre ++ p :: post -> sp_last_recv_frame s <= g ->
  length st = Z.to_nat (sp_num_players s) -> length (sp_host_status s) = Z.to_nat (sp_num_players s) ->
  sp_handle_input s (Z.of_nat (length pre)) g v st =
    Ok (sp_mk (sp_running s) (sp_num_players s) (sp_upd (sp_inputs s) (sp_slot g) (pre ++ sp_mkpi g v :: post)) st
              (sp_current_frame s) g (sp_max_frames_behind s) (sp_catchup_speed s)).
Proof.
  intros s pre p post g v st Hrow Hlast Hst Hhs. unfold sp_handle_input. rewrite Hrow, app_length. cbn [length].
  replace (_ || _) with false by lia. replace (g <? sp_last_recv_frame s) with false by lia.
  replace (_ || _) with false by lia.
  rewrite Nat2Z.id, sp_upd_eq, updz_app, <- Hhs, skipn_all, app_nil_r, Hhs, <- Hst, firstn_all. reflexivity.
Qed.

Lemma sp_feed_spec : forall evs s pre post g,
  sp_row s g = pre ++ post -> length post = length evs ->
  (sp_slot g < length (sp_inputs s))%nat ->
  sp_last_recv_frame s <= g ->
  Forall (fun e => length (snd e) = Z.to_nat (sp_num_players s)) evs ->
  length (sp_host_status s) = Z.to_nat (sp_num_players s) ->
  sp_feed s (Z.of_nat (length pre)) g evs =
    Ok (sp_mk (sp_running s) (sp_num_players s)
              (sp_upd (sp_inputs s) (sp_slot g) (pre ++ map (sp_mkpi g) (map fst evs)))
              (last (map snd evs) (sp_host_status s)) (sp_current_frame s)
              (match evs with [] => sp_last_recv_frame s | _ => g end)
              (sp_max_frames_behind s) (sp_catchup_speed s)).
Proof.
  induction evs as [|[v st] r IH]; intros s pre post g Hrow Hlen Hslot Hlast Hst Hhs.
  - destruct post; [|discriminate]. cbn [sp_feed map last]. rewrite <- Hrow. unfold sp_row.
    rewrite sp_upd_eq, updz_nth_self. destruct s; reflexivity.
  - destruct post as [|p post']; [discriminate|].
    inversion Hst as [|? ? Hst1 Hst2]; subst. cbn [snd] in Hst1.
    cbn [sp_feed]. rewrite (sp_handle_input_ok s pre p post') by assumption. cbn [res_bind].
    replace (Z.of_nat (length pre) + 1) with (Z.of_nat (length (pre ++ [sp_mkpi g v]))) by (rewrite app_length; cbn [length]; lia).
    rewrite (IH _ _ post'); cbn [sp_inputs sp_num_players sp_host_status sp_last_recv_frame sp_running
                                  sp_current_frame sp_max_frames_behind sp_catchup_speed].
    + rewrite sp_upd_upd, <- app_assoc. cbn [map fst snd]. rewrite sp_last_cons. destruct r; reflexivity.
    + unfold sp_row. cbn [sp_inputs]. rewrite sp_upd_nth, Nat.eqb_refl, <- app_assoc by exact Hslot. reflexivity.
    + cbn [length] in Hlen. lia.
    + rewrite sp_upd_eq, updz_length. exact Hslot.
    + lia.
    + exact Hst2.
    + exact Hst1.
Qed.

(* g < 0 (no frame yet): the blank row of sp_new *)
Definition sp_frame_row (n : Z) (hist : list (list Z)) (g : Z) : list sp_pinput :=
  if g <? 0 then repeat sp_blank (Z.to_nat n) else map (sp_mkpi g) (nth (Z.to_nat g) hist []).

Definition sp_ring (n : Z) (hist : list (list Z)) : list (list sp_pinput) :=
  map (fun i => sp_frame_row n hist (sp_newest (sp_hlen hist - 1) (Z.of_nat i))) (seq 0 (Z.to_nat SPECTATOR_BUFFER_SIZE)).

Definition sp_abs (n mfb cs : Z) (running : bool) (cur : Z) (hist : list (list Z)) (lastst : list sp_cstatus) : sp_state :=
  sp_mk running n (sp_ring n hist) lastst cur (sp_hlen hist - 1) mfb cs.

Definition sp_rows (n : Z) (hist : list (list Z)) : Prop := Forall (fun r => Z.of_nat (length r) = n) hist.
Definition sp_ok (n : Z) (hist : list (list Z)) (lastst : list sp_cstatus) : Prop :=
  1 <= n /\ sp_rows n hist /\ length lastst = Z.to_nat n.

Definition sp_default_status (n : Z) : list sp_cstatus := repeat sp_cs_default (Z.to_nat n).

Lemma sp_new_abs : forall n mfb cs, sp_new n mfb cs = sp_abs n mfb cs false NULL [] (sp_default_status n).
Proof. reflexivity. Qed.

Lemma sp_row_abs : forall n mfb cs r cur hist lastst f, 0 <= f < 2 ^ 64 ->
  sp_row (sp_abs n mfb cs r cur hist lastst) f = sp_frame_row n hist (sp_newest (sp_hlen hist - 1) f).
Proof.
  intros n mfb cs r cur hist lastst f Hf. unfold sp_row, sp_abs, sp_ring. cbn [sp_inputs].
  rewrite sp_nth_map_seq by apply sp_slot_lt. f_equal.
  pose proof (Z.mod_pos_bound f _ sp_size_pos). rewrite sp_slot_small, Z2Nat.id by lia.
  unfold sp_newest. rewrite Zminus_mod_idemp_r. reflexivity.
Qed.

Lemma sp_rows_nth : forall n hist f, sp_rows n hist -> 0 <= f < sp_hlen hist ->
  length (nth (Z.to_nat f) hist []) = Z.to_nat n.
Proof.
  intros n hist f F Hf. unfold sp_rows in F. rewrite Forall_forall in F.
  rewrite <- (F (nth (Z.to_nat f) hist [])), Nat2Z.id; [reflexivity|]. apply nth_In. unfold sp_hlen in Hf. lia.
Qed.

Lemma sp_frame_row_length : forall n hist g, sp_rows n hist -> g < sp_hlen hist ->
  length (sp_frame_row n hist g) = Z.to_nat n.
Proof.
  intros n hist g F Hg. unfold sp_frame_row. destruct (Z.ltb_spec g 0); [apply repeat_length|].
  rewrite map_length. apply (sp_rows_nth n hist g F). lia.
Qed.

Lemma sp_frame_row_snoc : forall n hist v g, g < sp_hlen hist -> sp_frame_row n (hist ++ [v]) g = sp_frame_row n hist g.
Proof.
  intros n hist v g Hg. unfold sp_frame_row. destruct (g <? 0) eqn:E; [reflexivity|].
  rewrite app_nth1 by (unfold sp_hlen in Hg; lia). reflexivity.
Qed.

Lemma sp_ring_snoc : forall n hist vals, sp_hlen hist < 2 ^ 64 ->
  sp_upd (sp_ring n hist) (sp_slot (sp_hlen hist)) (map (sp_mkpi (sp_hlen hist)) vals) = sp_ring n (hist ++ [vals]).
Proof.
  intros n hist vals Hb. set (L := sp_hlen hist) in *. assert (HL : 0 <= L) by (unfold L, sp_hlen; lia).
  pose proof (sp_slot_lt L) as Hs. pose proof sp_size_pos as Hp.
  assert (Hlen : length (sp_ring n hist) = Z.to_nat SPECTATOR_BUFFER_SIZE) by (unfold sp_ring; rewrite map_length, seq_length; reflexivity).
  apply (nth_ext _ _ [] []); [unfold sp_ring; rewrite sp_upd_eq, updz_length, !map_length; reflexivity|].
  intros i Hi. rewrite sp_upd_eq, updz_length, Hlen in Hi. rewrite sp_upd_nth by (rewrite Hlen; exact Hs).
  unfold sp_ring. rewrite !sp_nth_map_seq by exact Hi. rewrite sp_hlen_app. fold L.
  replace (L + sp_hlen [vals] - 1) with L by (unfold sp_hlen; cbn [length]; lia).
  rewrite (sp_newest_step L), (Z.mod_small (Z.of_nat i)) by lia. rewrite sp_slot_small by lia.
  pose proof (Z.mod_pos_bound L _ Hp) as Hm.
  destruct (Z.eqb_spec (L mod SPECTATOR_BUFFER_SIZE) (Z.of_nat i)) as [E|E].
  - replace (Nat.eqb _ i) with true by (symmetry; apply Nat.eqb_eq; lia).
    unfold sp_frame_row. replace (L <? 0) with false by lia.
    replace (Z.to_nat L) with (length hist) by (unfold L, sp_hlen; lia).
    rewrite nth_middle. reflexivity.
  - replace (Nat.eqb _ i) with false by (symmetry; apply Nat.eqb_neq; lia).
    symmetry. apply sp_frame_row_snoc. pose proof (sp_newest_range (L - 1) (Z.of_nat i)). fold L. lia.
Qed.

Lemma sp_feed_abs : forall n mfb cs r cur hist lastst evs,
  sp_ok n hist lastst -> sp_hlen hist < 2 ^ 64 ->
  Z.of_nat (length evs) = n -> Forall (fun e => Z.of_nat (length (snd e)) = n) evs ->
  sp_feed (sp_abs n mfb cs r cur hist lastst) 0 (sp_hlen hist) evs =
    Ok (sp_abs n mfb cs r cur (hist ++ [map fst evs]) (last (map snd evs) lastst)).
Proof.
  intros n mfb cs r cur hist lastst evs (Hn & Hrows & Hl) Hb Hlen Hst. set (s := sp_abs _ _ _ _ _ _ _).
  assert (HL : 0 <= sp_hlen hist) by (unfold sp_hlen; lia).
  pose proof (sp_feed_spec evs s [] (sp_row s (sp_hlen hist)) (sp_hlen hist) eq_refl) as F.
  cbn [length Z.of_nat] in F. rewrite F.
  - unfold s, sp_abs. cbn [sp_running sp_num_players sp_inputs sp_host_status sp_current_frame sp_last_recv_frame
                           sp_max_frames_behind sp_catchup_speed app].
    rewrite sp_ring_snoc by exact Hb. do 2 f_equal. rewrite sp_hlen_app.
    destruct evs; [cbn [length] in Hlen; lia|]. unfold sp_hlen. cbn [length]. lia.
  - pose proof (sp_newest_range (sp_hlen hist - 1) (sp_hlen hist)) as R.
    unfold s. rewrite sp_row_abs by lia. rewrite (sp_frame_row_length n hist) by (try exact Hrows; lia). lia.
  - unfold s, sp_abs, sp_ring. cbn [sp_inputs]. rewrite map_length, seq_length. apply sp_slot_lt.
  - unfold s, sp_abs. cbn [sp_last_recv_frame]. lia.
  - unfold s, sp_abs. cbn [sp_num_players]. eapply Forall_impl; [|exact Hst]. cbn beta. intros e He. lia.
  - unfold s, sp_abs. cbn [sp_num_players sp_host_status]. exact Hl.
Qed.

Lemma sp_zip_ok : forall row hs f, length row = length hs ->
  sp_zip_status row hs f = Ok (combine (map sp_pi_val row) (map (sp_stat f) hs)).
Proof.
  induction row as [|p r IH]; intros [|c h] f H; cbn [length] in H; try discriminate; [reflexivity|].
  cbn [sp_zip_status map combine]. rewrite IH by lia. reflexivity.
Qed.

Definition sp_request (hist : list (list Z)) (lastst : list sp_cstatus) (f : Z) : list (Z * sp_istatus) :=
  combine (nth (Z.to_nat f) hist []) (map (sp_stat f) lastst).

Lemma sp_frame_row_head : forall n hist g, 1 <= n -> sp_rows n hist -> g < sp_hlen hist ->
  exists p r, sp_frame_row n hist g = p :: r /\ (sp_pi_frame p = g \/ g < 0 /\ sp_pi_frame p = NULL).
Proof.
  intros n hist g Hn F Hg. pose proof (sp_frame_row_length n hist g F Hg) as Hl.
  unfold sp_frame_row in *. destruct (Z.ltb_spec g 0) as [N|N].
  - destruct (Z.to_nat n) eqn:En; [lia|]. eexists. eexists. split; [reflexivity|]. right. split; [exact N|reflexivity].
  - destruct (nth (Z.to_nat g) hist []); [cbn [map length] in Hl; lia|]. eexists. eexists. split; [reflexivity|]. left. reflexivity.
Qed.

Lemma sp_grab_abs : forall n mfb cs r cur hist lastst f, sp_ok n hist lastst -> 0 <= f < 2 ^ 64 ->
  sp_inputs_at_frame (sp_abs n mfb cs r cur hist lastst) f =
    if sp_hlen hist - 1 <? f then Ok (sp_Fail sp_PredictionThreshold)
    else if f <=? sp_hlen hist - 1 - SPECTATOR_BUFFER_SIZE then Ok (sp_Fail sp_SpectatorTooFarBehind)
    else Ok (sp_Got (sp_request hist lastst f)).
Proof.
  intros n mfb cs r cur hist lastst f (Hn & Hrows & Hl) Hf. unfold sp_inputs_at_frame. rewrite sp_row_abs by exact Hf.
  set (L := sp_hlen hist). pose proof (sp_newest_range (L - 1) f) as R.
  destruct (sp_frame_row_head n hist (sp_newest (L - 1) f) Hn Hrows ltac:(fold L; lia)) as (p & row & E & Hp).
  rewrite E. unfold NULL in Hp.
  destruct (Z.ltb_spec (L - 1) f) as [C1|C1]; [|destruct (Z.leb_spec f (L - 1 - SPECTATOR_BUFFER_SIZE)) as [C2|C2]].
  - replace (sp_pi_frame p <? f) with true by lia. reflexivity.
  - replace (sp_pi_frame p <? f) with false by lia. replace (f <? sp_pi_frame p) with true by lia. reflexivity.
  - rewrite (sp_newest_unique (L - 1) f f) in * by (try reflexivity; lia).
    replace (sp_pi_frame p <? f) with false by lia. replace (f <? sp_pi_frame p) with false by lia.
    rewrite <- E, sp_zip_ok.
    + unfold sp_frame_row. replace (f <? 0) with false by lia. rewrite map_map. cbn [sp_pi_val]. rewrite map_id. reflexivity.
    + rewrite (sp_frame_row_length n hist) by (try exact Hrows; fold L; lia). symmetry. exact Hl.
Qed.

Fixpoint sp_frames (from : Z) (k : nat) : list Z :=
  match k with O => [] | S j => from :: sp_frames (from + 1) j end.

Lemma sp_frames_length : forall k from, length (sp_frames from k) = k.
Proof. induction k as [|k IH]; intros; cbn [sp_frames length]; [|rewrite IH]; reflexivity. Qed.

Lemma sp_nth_map_frames : forall A (F : Z -> A) k from j d, (j < k)%nat ->
  nth j (map F (sp_frames from k)) d = F (from + Z.of_nat j).
Proof.
  induction k as [|k IH]; intros from [|j] d H; try lia; cbn [sp_frames map nth].
  - f_equal. lia.
  - rewrite IH by lia. f_equal. lia.
Qed.

Lemma sp_set_current_same : forall s, sp_set_current s (sp_current_frame s) = s.
Proof. destruct s; reflexivity. Qed.

Lemma sp_loop_spec : forall req k s,
  (forall f, sp_current_frame s < f <= sp_current_frame s + Z.of_nat k -> sp_inputs_at_frame s f = Ok (sp_Got (req f))) ->
  sp_advance_loop k s = Ok (sp_set_current s (sp_current_frame s + Z.of_nat k),
                            sp_Delivered (map req (sp_frames (sp_current_frame s + 1) k))).
Proof.
  induction k as [|k IH]; intros s H.
  - cbn [sp_advance_loop Z.of_nat sp_frames map]. rewrite Z.add_0_r, sp_set_current_same. reflexivity.
  - cbn [sp_advance_loop]. rewrite H by lia. rewrite IH.
    + cbn [sp_set_current sp_current_frame sp_frames map].
      replace (sp_current_frame s + Z.of_nat (S k)) with (sp_current_frame s + 1 + Z.of_nat k) by lia. reflexivity.
    + intros f Hf. cbn [sp_set_current sp_current_frame] in Hf. rewrite <- H by lia. reflexivity.
Qed.

Definition sp_requests (o : sp_outcome) : list (list (Z * sp_istatus)) :=
  match o with sp_Delivered l => l | sp_Failed _ => [] end.

Lemma sp_delivered_snoc : forall calls o, sp_delivered (calls ++ [o]) = sp_delivered calls ++ sp_requests o.
Proof. intros. change sp_delivered with (flat_map sp_requests). rewrite flat_map_app. cbn [flat_map]. apply f_equal, app_nil_r. Qed.

Lemma sp_frames_to_advance_le : forall s behind, 0 < behind -> sp_frames_to_advance s behind <= behind.
Proof. intros s behind H. unfold sp_frames_to_advance. rewrite sp_normal_speed_one. destruct (_ <? _); lia. Qed.

Lemma sp_frames_behind_ok : forall s, sp_current_frame s <= sp_last_recv_frame s ->
  sp_frames_behind s = Ok (sp_last_recv_frame s - sp_current_frame s).
Proof. intros s H. unfold sp_frames_behind. replace (_ <? 0) with false by lia. reflexivity. Qed.

Definition sp_call (n mfb cs : Z) (running : bool) (cur : Z) (hist : list (list Z)) (lastst : list sp_cstatus) : sp_outcome :=
  let behind := sp_hlen hist - 1 - cur in
  let k := sp_frames_to_advance (sp_abs n mfb cs running cur hist lastst) behind in
  if negb running then sp_Failed sp_NotSynchronized
  else if k <=? 0 then sp_Delivered []
  else if behind =? 0 then sp_Failed sp_PredictionThreshold
  else if SPECTATOR_BUFFER_SIZE <? behind then sp_Failed sp_SpectatorTooFarBehind
  else sp_Delivered (map (sp_request hist lastst) (sp_frames (cur + 1) (Z.to_nat k))).

Lemma sp_advance_abs : forall n mfb cs r cur hist lastst,
  sp_ok n hist lastst -> sp_hlen hist < 2 ^ 64 -> -1 <= cur < sp_hlen hist ->
  let o := sp_call n mfb cs r cur hist lastst in
  sp_advance (sp_abs n mfb cs r cur hist lastst) = Ok (sp_abs n mfb cs r (cur + sp_hlen (sp_requests o)) hist lastst, o).
Proof.
  intros n mfb cs r cur hist lastst K Hb Hcur o. set (s := sp_abs n mfb cs r cur hist lastst). pose proof sp_size_pos as Hp.
  assert (Hsame : sp_abs n mfb cs r (cur + sp_hlen (@nil (list (Z * sp_istatus)))) hist lastst = s)
    by (unfold sp_hlen; cbn [length]; rewrite Z.add_0_r; reflexivity).
  pose proof (fun f => sp_grab_abs n mfb cs r cur hist lastst f K) as G. fold s in G.
  unfold sp_advance, o, sp_call. fold s. rewrite sp_frames_behind_ok by (cbn [s sp_abs sp_current_frame sp_last_recv_frame]; lia).
  change (sp_last_recv_frame s - sp_current_frame s) with (sp_hlen hist - 1 - cur).
  set (behind := sp_hlen hist - 1 - cur). cbn [res_bind]. set (k := sp_frames_to_advance s behind).
  destruct r; cbn [s sp_abs sp_running negb sp_requests]; [fold s|rewrite Hsame; reflexivity].
  destruct (Z.leb_spec k 0) as [K0|K0].
  { replace (Z.to_nat k) with O by lia. cbn [sp_advance_loop sp_requests]. rewrite Hsame. reflexivity. }
  destruct (Z.to_nat k) as [|k'] eqn:Ek; [lia|].
  destruct (Z.eqb_spec behind 0) as [B0|B0].
  { assert (Tnew : (sp_hlen hist - 1 <? cur + 1) = true) by lia.
    cbn [sp_advance_loop sp_requests]. change (sp_current_frame s) with cur. rewrite G, Tnew, Hsame by lia. reflexivity. }
  assert (Tnew : (sp_hlen hist - 1 <? cur + 1) = false) by lia.
  destruct (Z.ltb_spec SPECTATOR_BUFFER_SIZE behind) as [B1|B1].
  { assert (Told : (cur + 1 <=? sp_hlen hist - 1 - SPECTATOR_BUFFER_SIZE) = true) by lia.
    cbn [sp_advance_loop sp_requests]. change (sp_current_frame s) with cur. rewrite G, Tnew, Told, Hsame by lia. reflexivity. }
  pose proof (sp_frames_to_advance_le s behind ltac:(lia)) as Hk. fold k in Hk.
  rewrite <- Ek. rewrite (sp_loop_spec (sp_request hist lastst)).
  - cbn [sp_requests]. unfold sp_hlen. rewrite map_length, sp_frames_length. reflexivity.
  - intros f Hf. change (sp_current_frame s) with cur in Hf.
    assert (Tnewf : (sp_hlen hist - 1 <? f) = false) by lia.
    assert (Toldf : (f <=? sp_hlen hist - 1 - SPECTATOR_BUFFER_SIZE) = false) by lia.
    rewrite G, Tnewf, Toldf by lia. reflexivity.
Qed.

Lemma sp_call_requests : forall n mfb cs r cur hist lastst, cur < sp_hlen hist ->
  exists k, sp_requests (sp_call n mfb cs r cur hist lastst) = map (sp_request hist lastst) (sp_frames (cur + 1) k) /\
            cur + Z.of_nat k < sp_hlen hist.
Proof.
  intros n mfb cs r cur hist lastst H. unfold sp_call. set (behind := sp_hlen hist - 1 - cur). set (k := sp_frames_to_advance _ _).
  assert (Z0 : exists k, [] = map (sp_request hist lastst) (sp_frames (cur + 1) k) /\ cur + Z.of_nat k < sp_hlen hist)
    by (exists O; split; [reflexivity|lia]).
  destruct (negb r); [exact Z0|]. destruct (Z.leb_spec k 0); [exact Z0|].
  destruct (Z.eqb_spec behind 0); [exact Z0|]. destruct (_ <? _); [exact Z0|].
  pose proof (sp_frames_to_advance_le (sp_abs n mfb cs r cur hist lastst) behind ltac:(lia)) as Hk. fold k in Hk.
  eexists. split; [reflexivity|]. lia.
Qed.

Inductive sp_TInv (n mfb cs : Z) (hist : list (list Z)) (lastst : list sp_cstatus) : sp_trace -> Prop :=
| sp_tinv : forall r calls,
    sp_ok n hist lastst ->
    (forall k, (k < length (sp_delivered calls))%nat -> map fst (nth k (sp_delivered calls) []) = nth k hist []) ->
    (length (sp_delivered calls) <= length hist)%nat ->
    sp_TInv n mfb cs hist lastst
      (sp_mkt (sp_abs n mfb cs r (sp_hlen (sp_delivered calls) - 1) hist lastst) (sp_hlen hist) calls).

Lemma sp_tinv_start : forall n mfb cs, 1 <= n -> sp_TInv n mfb cs [] (sp_default_status n) (sp_start n mfb cs).
Proof.
  intros n mfb cs Hn. unfold sp_start. rewrite sp_new_abs. apply (sp_tinv n mfb cs [] (sp_default_status n) false []).
  - split; [exact Hn|]. split; [constructor|apply repeat_length].
  - intros k Hk. cbn [sp_delivered flat_map length] in Hk. lia.
  - cbn [sp_delivered flat_map length]. lia.
Qed.

Lemma sp_last_status_length : forall n evs d, Forall (fun e : Z * list sp_cstatus => Z.of_nat (length (snd e)) = n) evs ->
  length d = Z.to_nat n -> length (last (map snd evs) d) = Z.to_nat n.
Proof.
  induction evs as [|e evs IH]; intros d F Hd; [exact Hd|].
  cbn [map]. rewrite sp_last_cons. inversion F; subst. apply IH; [assumption|lia].
Qed.

Lemma sp_request_vals : forall n hist lastst f, sp_ok n hist lastst -> 0 <= f < sp_hlen hist ->
  map fst (sp_request hist lastst f) = nth (Z.to_nat f) hist [].
Proof.
  intros n hist lastst f (_ & Hrows & Hl) Hf. apply sp_map_fst_combine.
  rewrite map_length, (sp_rows_nth n hist f Hrows Hf). symmetry. exact Hl.
Qed.

Lemma sp_step_frame : forall n mfb cs t hist lastst evs,
  sp_TInv n mfb cs hist lastst t -> sp_hlen hist + 1 < 2 ^ 64 ->
  Z.of_nat (length evs) = n -> Forall (fun e => Z.of_nat (length (snd e)) = n) evs ->
  exists t', sp_hstep t (sp_HFrame evs) = Ok t' /\
             sp_TInv n mfb cs (hist ++ [map fst evs]) (last (map snd evs) lastst) t'.
Proof.
  intros n mfb cs t hist lastst evs [r calls K D Hle] Hb W1 W2.
  cbn [sp_hstep sp_t_state sp_t_nframes sp_t_calls]. rewrite sp_feed_abs by (try assumption; lia). cbn [res_bind].
  eexists. split; [reflexivity|].
  replace (sp_hlen hist + 1) with (sp_hlen (hist ++ [map fst evs])) by (rewrite sp_hlen_app; reflexivity).
  destruct K as (Hn & F & Hl). constructor.
  - split; [exact Hn|]. split; [|apply sp_last_status_length; assumption].
    apply Forall_app. split; [exact F|]. constructor; [|constructor]. rewrite map_length. exact W1.
  - intros k Hk. rewrite app_nth1 by lia. apply D. exact Hk.
  - rewrite app_length. lia.
Qed.

Lemma sp_step_sync : forall n mfb cs t hist lastst,
  sp_TInv n mfb cs hist lastst t -> exists t', sp_hstep t sp_HSync = Ok t' /\ sp_TInv n mfb cs hist lastst t'.
Proof.
  intros n mfb cs t hist lastst [r calls K D Hle]. eexists. split; [reflexivity|].
  exact (sp_tinv n mfb cs hist lastst true calls K D Hle).
Qed.

Lemma sp_step_advance : forall n mfb cs t hist lastst,
  sp_TInv n mfb cs hist lastst t -> sp_hlen hist < 2 ^ 64 ->
  exists t', sp_hstep t sp_HAdvance = Ok t' /\ sp_TInv n mfb cs hist lastst t'.
Proof.
  intros n mfb cs t hist lastst [r calls K D Hle] Hb. set (cur := sp_hlen (sp_delivered calls) - 1).
  assert (Hcur : -1 <= cur < sp_hlen hist) by (unfold cur, sp_hlen; lia).
  cbn [sp_hstep sp_t_state sp_t_nframes sp_t_calls]. fold cur. rewrite sp_advance_abs by assumption. cbn [res_bind].
  eexists. split; [reflexivity|]. set (o := sp_call n mfb cs r cur hist lastst).
  destruct (sp_call_requests n mfb cs r cur hist lastst) as (k & E & Hk); [lia|]. fold o in E.
  replace (cur + sp_hlen (sp_requests o)) with (sp_hlen (sp_delivered (calls ++ [o])) - 1)
    by (rewrite sp_delivered_snoc, sp_hlen_app; unfold cur; lia).
  apply (sp_tinv n mfb cs hist lastst r (calls ++ [o]) K); rewrite sp_delivered_snoc, app_length, E, map_length, sp_frames_length.
  - intros j Hj. destruct (Nat.lt_ge_cases j (length (sp_delivered calls))) as [Lt|Ge].
    + rewrite app_nth1 by exact Lt. apply D. exact Lt.
    + rewrite app_nth2, sp_nth_map_frames by lia.
      replace (cur + 1 + Z.of_nat (j - length (sp_delivered calls))) with (Z.of_nat j) by (unfold cur, sp_hlen; lia).
      rewrite <- (Nat2Z.id j) at 2. apply (sp_request_vals n hist lastst _ K). unfold cur, sp_hlen in *. lia.
  - unfold cur, sp_hlen in Hk. lia.
Qed.

Lemma sp_run_inv : forall n mfb cs ops t hist lastst,
  sp_TInv n mfb cs hist lastst t -> sp_wf n ops -> sp_hlen (hist ++ sp_hist ops) < 2 ^ 64 ->
  exists t', sp_hrun t ops = Ok t' /\ sp_TInv n mfb cs (hist ++ sp_hist ops) (sp_last_status lastst ops) t'.
Proof.
  intros n mfb cs ops. induction ops as [|o ops IH]; intros t hist lastst T W Hb.
  - exists t. cbn [sp_hrun sp_hist sp_last_status]. rewrite app_nil_r. split; [reflexivity|exact T].
  - inversion W as [|? ? W1 W2]; subst. cbn [sp_hrun].
    assert (Hb1 : sp_hlen hist + sp_hlen (sp_hist (o :: ops)) < 2 ^ 64) by (rewrite <- sp_hlen_app; exact Hb).
    assert (H0 : 0 <= sp_hlen (sp_hist ops)) by (unfold sp_hlen; lia).
    destruct o as [evs| |]; cbn [sp_hist sp_last_status] in Hb, Hb1 |- *.
    + destruct W1 as (W1 & W3).
      destruct (sp_step_frame n mfb cs t hist lastst evs T) as (t1 & -> & T1); [unfold sp_hlen in *; cbn [length] in Hb1; lia|exact W1|exact W3|].
      change (hist ++ map fst evs :: sp_hist ops) with (hist ++ [map fst evs] ++ sp_hist ops) in Hb |- *.
      rewrite app_assoc in Hb |- *. exact (IH _ _ _ T1 W2 Hb).
    + destruct (sp_step_sync n mfb cs t hist lastst T) as (t1 & -> & T1). exact (IH _ _ _ T1 W2 Hb).
    + destruct (sp_step_advance n mfb cs t hist lastst T) as (t1 & -> & T1); [lia|]. exact (IH _ _ _ T1 W2 Hb).
Qed.

Lemma sp_reach : forall n mfb cs ops,
  1 <= n -> sp_wf n ops -> sp_hlen (sp_hist ops) < 2 ^ 31 ->
  exists t, sp_hrun (sp_start n mfb cs) ops = Ok t /\
            sp_TInv n mfb cs (sp_hist ops) (sp_last_status (sp_default_status n) ops) t.
Proof.
  intros n mfb cs ops Hn W Hb. apply (sp_run_inv n mfb cs ops _ [] _ (sp_tinv_start n mfb cs Hn) W).
  cbn [app]. lia.
Qed.

Lemma sp_reached : forall n mfb cs ops t,
  1 <= n -> sp_wf n ops -> sp_hlen (sp_hist ops) < 2 ^ 31 -> sp_hrun (sp_start n mfb cs) ops = Ok t ->
  sp_TInv n mfb cs (sp_hist ops) (sp_last_status (sp_default_status n) ops) t.
Proof.
  intros n mfb cs ops t Hn W Hb R. destruct (sp_reach n mfb cs ops Hn W Hb) as (t' & R' & T). congruence.
Qed.

Lemma sp_call_bounds : forall n mfb cs r cur hist lastst,
  let behind := sp_hlen hist - 1 - cur in
  0 <= behind ->
  match sp_call n mfb cs r cur hist lastst with
  | sp_Delivered l =>
      sp_hlen l <= Z.max 1 cs /\ sp_hlen l <= Z.max 1 behind /\
      (1 < sp_hlen l -> mfb < behind) /\ (behind <= mfb -> 1 <= behind -> sp_hlen l = 1)
  | sp_Failed e =>
      (e = sp_NotSynchronized <-> r = false) /\
      (e = sp_PredictionThreshold -> behind = 0) /\
      (e = sp_SpectatorTooFarBehind -> SPECTATOR_BUFFER_SIZE < behind)
  end.
Proof.
  intros n mfb cs r cur hist lastst behind Hb. unfold sp_call. fold behind. pose proof sp_size_pos as Hp.
  destruct r; cbn [negb]; [|split; [split; reflexivity|split; discriminate]].
  set (k := sp_frames_to_advance _ behind).
  assert (Hk : k <= Z.max 1 cs /\ k <= Z.max 1 behind /\ (1 < k -> mfb < behind) /\ (behind <= mfb -> k = 1)).
  { unfold k, sp_frames_to_advance. cbn [sp_abs sp_max_frames_behind sp_catchup_speed]. rewrite sp_normal_speed_one.
    destruct (Z.ltb_spec mfb behind); lia. }
  destruct (Z.leb_spec k 0); [unfold sp_hlen; cbn [length]; lia|].
  destruct (Z.eqb_spec behind 0); [split; [split; discriminate|split; [intros _; assumption|discriminate]]|].
  destruct (Z.ltb_spec SPECTATOR_BUFFER_SIZE behind); [split; [split; discriminate|split; [discriminate|intros _; assumption]]|].
  unfold sp_hlen. rewrite map_length, sp_frames_length. lia.
Qed.

Lemma sp_request_status : forall n hist lastst f p, sp_ok n hist lastst -> 0 <= f < sp_hlen hist ->
  length (sp_request hist lastst f) = Z.to_nat n /\
  snd (nth p (sp_request hist lastst f) (0, sp_Confirmed)) = sp_stat f (nth p lastst sp_cs_default).
Proof.
  intros n hist lastst f p (_ & Hrows & Hl) Hf. pose proof (sp_rows_nth n hist f Hrows Hf) as Hrow.
  unfold sp_request. split; [rewrite combine_length, map_length; lia|].
  change sp_Confirmed with (snd (0, sp_Confirmed)) at 1. rewrite <- map_nth, sp_map_snd_combine by (rewrite map_length; lia).
  change sp_Confirmed with (sp_stat f sp_cs_default). apply map_nth.
Qed.

Definition sp_wfb (n : Z) (ops : list sp_hop) : bool :=
  forallb (fun o => match o with
                    | sp_HFrame evs => (Z.of_nat (length evs) =? n) && forallb (fun e => Z.of_nat (length (snd e)) =? n) evs
                    | _ => true
                    end) ops.

Lemma sp_wfb_ok : forall n ops, sp_wfb n ops = true -> sp_wf n ops.
Proof.
  intros n ops H. apply Forall_forall. intros o Ho. apply (proj1 (forallb_forall _ _) H) in Ho.
  destruct o as [evs| |]; [|exact I|exact I]. apply andb_prop in Ho. destruct Ho as (H1 & H2).
  split; [lia|]. apply Forall_forall. intros e He. apply (proj1 (forallb_forall _ _) H2) in He. lia.
Qed.

Definition sp_ex_frame (f : Z) : sp_hop :=
  sp_HFrame [(10 * f + 1, [sp_mkcs false f; sp_mkcs false f]); (10 * f + 2, [sp_mkcs false f; sp_mkcs false f])].
Fixpoint sp_ex_frames (from : Z) (k : nat) : list sp_hop :=
  match k with O => [] | S j => sp_ex_frame from :: sp_ex_frames (from + 1) j end.

Definition sp_outcomes (r : res sp_trace) : list sp_outcome := match r with Ok t => sp_t_calls t | _ => [] end.
Definition sp_final_frame (r : res sp_trace) : Z := match r with Ok t => sp_current_frame (sp_t_state t) | _ => -2 end.

(* overrun: two frames are replayed, then the host sends 61 more frames before the next call:
   frame 2 has been overwritten by frame 62 and the call reports SpectatorTooFarBehind *)
Definition sp_ex_overrun : list sp_hop :=
  [sp_HSync] ++ sp_ex_frames 0 2 ++ [sp_HAdvance; sp_HAdvance] ++ sp_ex_frames 2 61 ++ [sp_HAdvance].

(* catch-up: 14 frames buffered with max_frames_behind = 10, catchup_speed = 3: the calls deliver
   3 frames while more than 10 are outstanding, then 1 *)
Definition sp_ex_catchup : list sp_hop :=
  [sp_HSync] ++ sp_ex_frames 0 14 ++ [sp_HAdvance; sp_HAdvance; sp_HAdvance].

(* a disconnected player: the host marks player 1 disconnected at frame 0; frame 0 is still
   Confirmed for it, frame 1 is Disconnected *)
Definition sp_ex_disc : list sp_hop :=
  [sp_HSync;
   sp_HFrame [(5, [sp_mkcs false 0; sp_mkcs false 0]); (6, [sp_mkcs false 0; sp_mkcs false 0])];
   sp_HFrame [(7, [sp_mkcs false 1; sp_mkcs true 0]); (0, [sp_mkcs false 1; sp_mkcs true 0])];
   sp_HAdvance; sp_HAdvance].

