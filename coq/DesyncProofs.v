(* Theorems about the desync-detection model: no false alarm when every checksum in play is the
   checksum of the true state of its frame; a differing checksum is reported; what is reported. *)
From GGRS Require Import Base Consts Endpoint Desync.
From GGRS Require Import LiaSetup.
Open Scope Z_scope.

Definition pend_kept (L : Z) (hist : list (Z * Z)) (e : Z * Z) : bool :=
  (L <=? fst e) || match alookup (fst e) hist with Some _ => false | None => true end.
Definition pend_alarm (L : Z) (hist : list (Z * Z)) (e : Z * Z) : list (Z * Z * Z) :=
  if L <=? fst e then [] else
  match alookup (fst e) hist with
  | Some lc => if lc =? snd e then [] else [(fst e, lc, snd e)]
  | None => []
  end.

Lemma compare_one_eq : forall L hist pend,
  compare_one L hist pend = (filter (pend_kept L hist) pend, flat_map (pend_alarm L hist) pend).
Proof.
  induction pend as [|[f rc] r IH]; [reflexivity|].
  cbn [compare_one filter flat_map]. rewrite IH. unfold pend_kept, pend_alarm. cbn [fst snd].
  destruct (L <=? f); [reflexivity|]. destruct (alookup f hist) as [lc|]; [|reflexivity].
  destruct (lc =? rc); reflexivity.
Qed.

Lemma compare_all_cons : forall L hist ep p r,
  compare_all L hist ep (p :: r) =
    (filter (pend_kept L hist) p :: fst (compare_all L hist (ep + 1) r),
     map (fun '(f, lc, rc) => (ep, f, lc, rc)) (flat_map (pend_alarm L hist) p) ++ snd (compare_all L hist (ep + 1) r)).
Proof. intros. cbn [compare_all]. rewrite compare_one_eq. destruct (compare_all L hist (ep + 1) r). reflexivity. Qed.

Lemma compare_eq : forall L s,
  compare L s = (mkds (ds_interval s) (ds_last_sent s) (ds_hist s) (fst (compare_all L (ds_hist s) 0 (ds_pending s))),
                 snd (compare_all L (ds_hist s) 0 (ds_pending s))).
Proof. intros. unfold compare. destruct (compare_all _ _ _ _). reflexivity. Qed.

Lemma fold_left_inv {A B} (P : A -> Prop) (f : A -> B -> A) : forall l,
  (forall a x, In x l -> P a -> P (f a x)) -> forall a, P a -> P (fold_left f l a).
Proof.
  induction l as [|x l IH]; intros Hf a Ha; [exact Ha|].
  apply IH; [intros b y Hy; apply Hf; right; exact Hy|apply Hf; [left; reflexivity|exact Ha]].
Qed.

Lemma latest_in_range_spec : forall cells lo hi c, latest_in_range cells lo hi = Some c ->
  In c cells /\ lo <= fst c <= hi.
Proof.
  intros cells lo hi c. unfold latest_in_range. destruct (hi <? lo); [discriminate|].
  revert c. apply fold_left_inv; [|discriminate].
  intros acc x Hx Hacc c. destruct ((lo <=? fst x) && (fst x <=? hi)) eqn:Er; [|apply Hacc].
  assert (Hc : Some x = Some c -> In c cells /\ lo <= fst c <= hi) by (intros [= <-]; split; [exact Hx|lia]).
  destruct acc as [a|]; [|exact Hc]. destruct (fst a <=? fst x); [exact Hc|apply Hacc].
Qed.

Lemma cell_by_frame_spec : forall cells f byf, cell_by_frame cells f = Ok byf ->
  0 <= f /\ forall c, byf = Some c -> fst c = f /\ (In c cells \/ c = (NULL, None)).
Proof.
  intros cells f byf H. unfold cell_by_frame in H. destruct (Z.ltb_spec f 0); [discriminate|]. split; [assumption|].
  set (x := nth _ cells (NULL, None)) in *. injection H as <-. intros c Hc.
  destruct (Z.eqb_spec (fst x) f) as [E|E]; [|discriminate]. injection Hc as <-. split; [exact E|].
  subst x. destruct (nth_in_or_default (Z.to_nat (f mod Z.of_nat (length cells))) cells (NULL, None)); [left|right]; assumption.
Qed.

Lemma send_interval_cases : forall L cells s s' rep, send_interval L cells s = Ok (s', rep) ->
  (rep = None /\ s' = s) \/
  exists cf cs, rep = Some (cf, cs) /\ In (cf, Some cs) cells /\ 0 <= cf <= L /\
    s' = mkds (ds_interval s) cf (hist_after cf cs (interval_i32 s) (ds_hist s)) (ds_pending s).
Proof.
  intros L cells s s' rep E. unfold send_interval in E.
  set (fts := if ds_last_sent s =? NULL then _ else _) in *.
  destruct (Z.leb_spec fts L) as [HL|HL]; [|injection E as <- <-; left; split; reflexivity].
  destruct (cell_by_frame cells fts) as [byf| |] eqn:Eb; try discriminate.
  destruct (cell_by_frame_spec _ _ _ Eb) as (Hfts & Hbyf).
  assert (Hsel : forall c, (match byf with Some c => Some c | None => latest_in_range cells fts L end) = Some c ->
                   (In c cells \/ c = (NULL, None)) /\ fts <= fst c <= L).
  { intros c Hs. destruct byf as [c0|].
    - injection Hs as <-. destruct (Hbyf c0 eq_refl) as (A & B). split; [exact B|lia].
    - destruct (latest_in_range_spec _ _ _ _ Hs) as (A & B). split; [left; exact A|exact B]. }
  destruct (match byf with Some c => Some c | None => latest_in_range cells fts L end) as [[cf [cs|]]|];
    try (injection E as <- <-; left; split; reflexivity).
  injection E as <- <-. destruct (Hsel _ eq_refl) as ([Hin|Hd] & Hr); [|discriminate]. cbn [fst] in Hr.
  right. exists cf, cs. split; [reflexivity|]. split; [exact Hin|]. split; [lia|reflexivity].
Qed.

Lemma hist_after_lookup : forall cf cs iv h, 0 <= iv -> 0 <= cf -> alookup cf (hist_after cf cs iv h) = Some cs.
Proof.
  intros cf cs iv h Hiv Hcf. unfold hist_after.
  assert (Hl : alookup cf (ainsert cf cs h) = Some cs) by (unfold ainsert; cbn [alookup]; rewrite Z.eqb_refl; reflexivity).
  destruct (MAX_CHECKSUM_HISTORY_SIZE <? _); [|exact Hl].
  unfold aretain_ge, ainsert. cbn [filter fst].
  assert ((sat_sub cf (sat_mul (MAX_CHECKSUM_HISTORY_SIZE - 1) iv) <=? cf) = true) as ->.
  { unfold sat_sub, sat_mul, I32_MAX, MAX_CHECKSUM_HISTORY_SIZE. lia. }
  cbn [alookup]. rewrite Z.eqb_refl. reflexivity.
Qed.

Lemma send_interval_report : forall L cells s s' f cs,
  send_interval L cells s = Ok (s', Some (f, cs)) -> 0 <= interval_i32 s ->
  0 <= f <= L /\ ds_last_sent s' = f /\ alookup f (ds_hist s') = Some cs /\ In (f, Some cs) cells.
Proof.
  intros L cells s s' f cs E Hiv.
  destruct (send_interval_cases _ _ _ _ _ E) as [(X & _)|(cf & cs0 & X & Hin & Hr & ->)]; [discriminate|].
  injection X as <- <-. cbn [ds_last_sent ds_hist].
  split; [exact Hr|]. split; [reflexivity|]. split; [apply hist_after_lookup; lia|exact Hin].
Qed.

Section Truth.
(* the checksum of the (unique) correct state of each frame: what a deterministic game saves for a
   frame once all inputs before it are the real ones *)
Variable truth : Z -> Z.

Definition truthful (m : list (Z * Z)) : Prop := Forall (fun kv => snd kv = truth (fst kv)) m.
Definition Inv (s : ds) : Prop := truthful (ds_hist s) /\ Forall truthful (ds_pending s).

Lemma truthful_lookup : forall m f c, truthful m -> alookup f m = Some c -> c = truth f.
Proof.
  induction m as [|[k v] m IH]; intros f c H E; cbn [alookup] in E; [discriminate|].
  inversion H as [|? ? H1 H2]; subst. cbn [fst snd] in H1.
  destruct (Z.eqb_spec f k) as [->|Hne]; [injection E as <-; exact H1|eapply IH; eassumption].
Qed.
Lemma truthful_filter : forall m P, truthful m -> truthful (filter P m).
Proof. intros m P H. apply Forall_forall. intros x Hx. apply filter_In in Hx. exact (proj1 (Forall_forall _ _) H x (proj1 Hx)). Qed.
Lemma truthful_insert : forall m f, truthful m -> truthful (ainsert f (truth f) m).
Proof. intros m f H. constructor; [reflexivity|]. apply truthful_filter. exact H. Qed.

Lemma pend_alarm_truthful : forall L hist pend, truthful hist -> truthful pend -> flat_map (pend_alarm L hist) pend = [].
Proof.
  intros L hist pend Hh Hp. induction Hp as [|[f rc] r H1 _ IH]; [reflexivity|].
  cbn [flat_map]. rewrite IH, app_nil_r. unfold pend_alarm. cbn [fst snd] in *. destruct (L <=? f); [reflexivity|].
  destruct (alookup f hist) as [lc|] eqn:E; [|reflexivity].
  rewrite (truthful_lookup _ _ _ Hh E), H1, Z.eqb_refl. reflexivity.
Qed.

Lemma compare_all_truthful : forall L hist pends ep, truthful hist -> Forall truthful pends ->
  snd (compare_all L hist ep pends) = [] /\ Forall truthful (fst (compare_all L hist ep pends)).
Proof.
  intros L hist pends ep Hh Hp. revert ep. induction Hp as [|p r H1 _ IH]; intros ep; [split; [reflexivity|constructor]|].
  rewrite compare_all_cons. cbn [fst snd]. destruct (IH (ep + 1)) as (-> & F).
  rewrite (pend_alarm_truthful L hist p Hh H1). split; [reflexivity|]. constructor; [apply truthful_filter; exact H1|exact F].
Qed.

Lemma compare_no_false_alarm : forall L s, Inv s -> snd (compare L s) = [] /\ Inv (fst (compare L s)).
Proof.
  intros L s (Hh & Hp). rewrite compare_eq. cbn [fst snd].
  destruct (compare_all_truthful L (ds_hist s) (ds_pending s) 0 Hh Hp) as (A & B).
  split; [exact A|]. split; [exact Hh|exact B].
Qed.

(* the cells a report can be taken from carry the true checksum of their frame: C01 on saved states,
   SessionTimeline.confirmed_saved_states_are_replays - every saved frame <= L is final *)
Definition cells_truthful (L : Z) (cells : list cell) : Prop :=
  Forall (fun c => forall cs, snd c = Some cs -> 0 <= fst c <= L -> cs = truth (fst c)) cells.

Lemma hist_after_truthful : forall cf iv h, truthful h -> truthful (hist_after cf (truth cf) iv h).
Proof.
  intros cf iv h H. unfold hist_after. destruct (MAX_CHECKSUM_HISTORY_SIZE <? _); [apply truthful_filter|]; apply truthful_insert; exact H.
Qed.

Lemma send_interval_Inv : forall L cells s s' rep,
  send_interval L cells s = Ok (s', rep) -> cells_truthful L cells -> Inv s -> Inv s'.
Proof.
  intros L cells s s' rep E Hc (Hh & Hp).
  destruct (send_interval_cases _ _ _ _ _ E) as [(_ & ->)|(cf & cs & _ & Hin & Hr & ->)]; [split; assumption|].
  split; [|exact Hp]. cbn [ds_hist].
  rewrite (proj1 (Forall_forall _ _) Hc _ Hin cs eq_refl Hr). apply hist_after_truthful. exact Hh.
Qed.

Lemma upd_nth_Forall {A} (P : A -> Prop) : forall l i f, Forall P l -> (forall x, P x -> P (f x)) -> Forall P (upd_nth l i f).
Proof. induction l as [|x l IH]; intros [|i] f H Hf; inversion H; subst; cbn [upd_nth]; constructor; auto. Qed.

Lemma report_inv : forall ep f s, Inv s -> Inv (report ep f (truth f) s).
Proof.
  intros ep f s (Hh & Hp). split; [exact Hh|]. cbn [report ds_pending].
  apply upd_nth_Forall; [exact Hp|]. intros m Hm. unfold report_one.
  destruct (MAX_CHECKSUM_HISTORY_SIZE <=? _); [apply truthful_insert, truthful_filter, Hm|apply truthful_insert, Hm].
Qed.

Inductive dop :=
| DAdvance (L : Z) (cells : list cell)        (* an advance_frame call reading this sync-layer state *)
| DReport (ep frame cs : Z).                  (* a ChecksumReport arrives from endpoint ep *)

Fixpoint ds_run (s : ds) (ops : list dop) : res (ds * list (Z * Z * Z * Z)) :=
  match ops with
  | [] => Ok (s, [])
  | DAdvance L cells :: r =>
    match ds_advance L cells s with
    | Ok (s', _, evs) => match ds_run s' r with Ok (s'', evs') => Ok (s'', evs ++ evs') | e => e end
    | Err => Err | Panic => Panic
    end
  | DReport ep f cs :: r => ds_run (report ep f cs s) r
  end.

Definition op_truthful (o : dop) : Prop :=
  match o with
  | DAdvance L cells => cells_truthful L cells
  | DReport _ f cs => cs = truth f
  end.

(* NO FALSE ALARM, for every run: if every checksum that enters - the cells a report may be taken from,
   and the peers' reports - is the true checksum of its frame, no DesyncDetected is ever raised *)
Theorem no_false_alarm : forall ops s s' evs,
  Inv s -> Forall op_truthful ops -> ds_run s ops = Ok (s', evs) -> evs = [] /\ Inv s'.
Proof.
  induction ops as [|o ops IH]; intros s s' evs HI Hops E; cbn [ds_run] in E.
  - injection E as <- <-. split; [reflexivity|exact HI].
  - inversion Hops as [|? ? Ho Hops']; subst. destruct o as [L cells|ep f cs]; cbn [op_truthful] in Ho.
    + unfold ds_advance in E. destruct (send_interval L cells s) as [[s1 rep]| |] eqn:Es; try discriminate.
      destruct (compare_no_false_alarm L s1 (send_interval_Inv _ _ _ _ _ Es Ho HI)) as (A & B).
      rewrite compare_eq in *. cbn [fst snd] in *. rewrite A in E.
      destruct (ds_run _ ops) as [[s3 evs3]| |] eqn:Er; try discriminate. injection E as <- <-.
      exact (IH _ _ _ B Hops' Er).
    + subst cs. exact (IH _ s' evs (report_inv ep f s HI) Hops' E).
Qed.

End Truth.

Lemma pend_alarm_events : forall L hist pend f lc rc,
  In (f, lc, rc) (flat_map (pend_alarm L hist) pend) <->
  (In (f, rc) pend /\ f < L /\ alookup f hist = Some lc /\ lc <> rc).
Proof.
  intros L hist pend f lc rc. rewrite in_flat_map. split.
  - intros ([f0 rc0] & Hin & Ha). unfold pend_alarm in Ha. cbn [fst snd] in Ha.
    destruct (Z.leb_spec L f0); [destruct Ha|]. destruct (alookup f0 hist) as [lc0|] eqn:E; [|destruct Ha].
    destruct (Z.eqb_spec lc0 rc0); [destruct Ha|]. destruct Ha as [[= <- <- <-]|[]]. repeat split; assumption.
  - intros (Hin & Hl & E & Hne). exists (f, rc). split; [exact Hin|]. unfold pend_alarm. cbn [fst snd].
    replace (L <=? f) with false by lia. rewrite E. replace (lc =? rc) with false by lia. left. reflexivity.
Qed.

Lemma compare_one_kept : forall L hist pend f rc,
  In (f, rc) (fst (compare_one L hist pend)) <-> (In (f, rc) pend /\ (L <= f \/ alookup f hist = None)).
Proof.
  intros L hist pend f rc. rewrite compare_one_eq. cbn [fst]. rewrite filter_In. unfold pend_kept. cbn [fst].
  destruct (Z.leb_spec L f); destruct (alookup f hist); cbn [orb]; intuition (discriminate || lia).
Qed.

Lemma compare_all_events : forall L hist pends ep0 ep f lc rc,
  In (ep, f, lc, rc) (snd (compare_all L hist ep0 pends)) <->
  (exists pend, nth_error pends (Z.to_nat (ep - ep0)) = Some pend /\ ep0 <= ep /\
                In (f, rc) pend /\ f < L /\ alookup f hist = Some lc /\ lc <> rc).
Proof.
  induction pends as [|p r IH]; intros ep0 ep f lc rc.
  - cbn [compare_all snd In]. split; [intros []|]. intros (pend & A & _). destruct (Z.to_nat (ep - ep0)); discriminate A.
  - rewrite compare_all_cons. cbn [snd]. rewrite in_app_iff, in_map_iff, IH.
    pose proof (pend_alarm_events L hist p) as H1. split.
    + intros [([[f' lc'] rc'] & [= <- <- <- <-] & B)|(pend & A & B & C)].
      * apply H1 in B. exists p. replace (ep0 - ep0) with 0 by lia. split; [reflexivity|]. split; [lia|exact B].
      * exists pend. split; [|split; [lia|exact C]]. replace (Z.to_nat (ep - ep0)) with (S (Z.to_nat (ep - (ep0 + 1)))) by lia. exact A.
    + intros (pend & A & B & C).
      destruct (Z.eq_dec ep ep0) as [->|Hne].
      * replace (ep0 - ep0) with 0 in A by lia. injection A as <-. left. exists (f, lc, rc). split; [reflexivity|apply H1; exact C].
      * right. exists pend. split; [|split; [lia|exact C]].
        replace (Z.to_nat (ep - ep0)) with (S (Z.to_nat (ep - (ep0 + 1)))) in A by lia. exact A.
Qed.
